(* C09 - Lower-priority work never disturbs higher-priority work (scheduler model, every project):
   appending a task x that has strictly the lowest priority, on which nothing depends and which lies in no
   container, leaves the dates of EVERY other task (leaf or container) unchanged, the horizon being the
   same (p_upper is not changed by [extend]).  x itself may have any effort, team, limits, pinned start
   and dependencies ON other tasks.  The proof is a simulation of the two runs: x is last in the sorted
   work list, so it is picked only when no other remaining task is ready, and placing it makes nothing
   ready.  Other declaration positions of x and sub-slot efforts are covered by the two-run comparison on
   the implementation (harness/props/c09.py). *)
From Coq Require Import List ZArith.
Require Import SP.Model.Sched SP.Proofs.SchedPrio.
Require Import SP.Model.Alap SP.Proofs.AlapProofs.

Theorem C09_lowest_priority_harmless : forall (p : project) (x : task),
  t_leaf x = true ->
  (forall t, t < length (p_tasks p) -> (t_prio x < t_prio (task_of p t))%Z) ->
  (forall t d, t < length (p_tasks p) -> In d (t_deps (task_of p t)) -> d_task d <> length (p_tasks p)) ->
  (forall t, t < length (p_tasks p) -> ~ In (length (p_tasks p)) (t_leaves (task_of p t))) ->
  forall u, u <> length (p_tasks p) ->
    dates (extend p x) (schedule (extend p x)) u = dates p (schedule p) u.
Proof. intros p x H1 H2 H3 H4 u Hu. now apply lowest_priority_harmless. Qed.
Print Assumptions C09_lowest_priority_harmless.

(* the new task is served last: it is the last element of the sorted work list *)
Theorem C09_served_last : forall (p : project) (x : task),
  t_leaf x = true -> (forall t, t < length (p_tasks p) -> (t_prio x < t_prio (task_of p t))%Z) ->
  sorted_leaves (extend p x) = sorted_leaves p ++ (length (p_tasks p) :: nil).
Proof. intros p x H1 H2. now apply sorted_leaves_extend. Qed.

(* ---- backward (ALAP) mode: the project record is read backwards (Model/Alap.v: t_deps = successor edges,
   t_pin = own end, t_lb = earliest deadline of the enclosing containers, n = p_upper slots) and the schedule
   is the mirror image of the forward schedule of the mirrored project *)
(* the new task is nobody's successor (it has no predecessor); it may have any effort, team, limits,
   deadline and successors of its own *)
Theorem C09_alap : forall (p : project) (x : task),
  t_leaf x = true ->
  (forall t, t < length (p_tasks p) -> (t_prio x < t_prio (task_of p t))%Z) ->
  (forall t d, t < length (p_tasks p) -> In d (t_deps (task_of p t)) -> d_task d <> length (p_tasks p)) ->
  (forall t, t < length (p_tasks p) -> ~ In (length (p_tasks p)) (t_leaves (task_of p t))) ->
  forall u, u <> length (p_tasks p) -> alap_dates (extend p x) u = alap_dates p u.
Proof. exact alap_lowest_priority_harmless. Qed.
Print Assumptions C09_alap.

(* ---- second granularity (Model/SubSlot.v: efforts, offsets and task ends inside a slot, limits counting bookings):
   the same statement - appending a leaf of strictly lowest priority on which nothing depends and which lies in no
   container leaves the dates of every other task unchanged *)
Require Import SP.Model.SubSlot SP.Proofs.SubSlotPrio.
Theorem C09_subslot : forall (p : sproject) (x : stask),
  s_leaf x = true ->
  (forall t, t < length (sp_tasks p) -> (s_prio x < s_prio (stask_of p t))%Z) ->
  (forall t d, t < length (sp_tasks p) -> In d (s_deps (stask_of p t)) -> sd_task d <> length (sp_tasks p)) ->
  (forall t, t < length (sp_tasks p) -> ~ In (length (sp_tasks p)) (s_leaves (stask_of p t))) ->
  forall u, u <> length (sp_tasks p) ->
    sdates (sextend p x) (sschedule (sextend p x)) u = sdates p (sschedule p) u.
Proof. exact subslot_lowest_priority_harmless. Qed.
Print Assumptions C09_subslot.
