(* C04 - Dependencies and gaps are respected (forward mode, scheduler model, every project):
   a scheduled task without a start of its own starts no earlier than end (start for on-start edges)
   of every predecessor plus the gap - own, inherited and 'precedes'-created edges are all in t_deps -
   and no earlier than the start inherited from a dated container; every predecessor is scheduled.
   Backward (ALAP) mode: C04_alap - a task without an end of its own ends no later than the start of every
   successor minus the gap and no later than the deadline of every enclosing container; every successor is
   scheduled.  On-start edges in backward mode and mixed chains are not claimed (as in the property). *)
From Coq Require Import List ZArith.
Require Import SP.Model.Sched SP.Proofs.SchedFinal.
Require Import SP.Model.Alap SP.Proofs.AlapProofs.
Require Import SP.Model.SubSlot SP.Proofs.SubSlotProofs SP.Proofs.SubSlotRun.

Theorem C04_asap : forall p t f e, leaf_dates (schedule p) t = Some (f, e) -> t_pin (task_of p t) = None ->
  t_lb (task_of p t) <= f /\
  forall d, In d (t_deps (task_of p t)) ->
    exists s' e', dates p (schedule p) (d_task d) = Some (s', e') /\
                  (if d_onstart d then s' else e') + d_gap d <= f.
Proof. exact deps_respected. Qed.
Print Assumptions C04_asap.

(* ---- backward (ALAP) mode: the project record is read backwards (Model/Alap.v: t_deps = successor edges,
   t_pin = own end, t_lb = earliest deadline of the enclosing containers, n = p_upper slots) and the schedule
   is the mirror image of the forward schedule of the mirrored project *)
Theorem C04_alap : forall p t f e,
  alap_leaf_dates p t = Some (f, e) -> t_pin (task_of p t) = None -> t < length (p_tasks p) ->
  e <= t_lb (task_of p t) /\
  forall d, In d (t_deps (task_of p t)) ->
    exists s' e', alap_dates p (d_task d) = Some (s', e') /\ e + d_gap d <= (if d_onstart d then e' else s').
Proof. exact alap_deps_respected. Qed.
Print Assumptions C04_alap.

(* non-vacuity: 8 slots, one resource working throughout; t0 (2 slots) must end one slot before t1 (1 slot)
   starts; backward scheduling puts t1 in the last slot and t0 in slots 4 and 5 *)
Example C04_alap_example :
  let r := {| r_work := fun _ => true; r_limits := nil |} in
  let t0 := {| t_leaf := true; t_kids := nil; t_leaves := nil; t_prio := 500%Z; t_need := 2; t_team := 0 :: nil;
               t_deps := {| d_task := 1; d_onstart := false; d_gap := 1 |} :: nil; t_pin := None; t_lb := 8; t_limits := nil |} in
  let t1 := {| t_leaf := true; t_kids := nil; t_leaves := nil; t_prio := 500%Z; t_need := 1; t_team := 0 :: nil;
               t_deps := nil; t_pin := None; t_lb := 8; t_limits := nil |} in
  let p := {| p_tasks := t0 :: t1 :: nil; p_res := r :: nil; p_limits := nil; p_upper := 8 |} in
  alap_results p = Some (4, 6) :: Some (7, 8) :: nil.
Proof. vm_compute. reflexivity. Qed.

(* ---- second granularity (Model/SubSlot.v: arbitrary efforts, efficiencies and gaps, tasks that begin and end
   inside slots and share them; one resource per task, no limits), for every well-formed project
   (wf: slot length > 0, efficiencies > 0, a task with work has a positive effort) *)
Theorem C04_subslot : forall p, wf p -> forall t f e, sleaf_dates (sschedule p) t = Some (f, e) ->
  (s_pin (stask_of p t) = None ->
     (s_lb (stask_of p t) <= f)%Z /\
     forall d, In d (s_deps (stask_of p t)) ->
       exists s' e', sdates p (sschedule p) (sd_task d) = Some (s', e') /\
                     ((if sd_onstart d then s' else e') + sd_gap d <= f)%Z) /\
  (forall s, s_pin (stask_of p t) = Some s -> (s <= f)%Z /\ (s_mile (stask_of p t) = true -> f = s)).
Proof.
  intros p H t f e Ht. destruct (sfinal_good H t Ht) as [_ _ _ (b & Hb & Hf & Hm & _)]. exact (Bound_by_le Hb Hf Hm).
Qed.
Print Assumptions C04_subslot.

(* ---- second granularity, teams with limits (Model/SubSlotTeam.v), every well-formed project *)
Require Import SP.Model.SubSlotTeam SP.Proofs.SubSlotTeamProofs.
Theorem C04_subslot_teams : forall p, twf p -> forall t f e, sleaf_dates (tschedule p) t = Some (f, e) ->
  (tt_pin (ttask_of p t) = None ->
     (tt_lb (ttask_of p t) <= f)%Z /\
     forall d, In d (tt_deps (ttask_of p t)) ->
       exists s' e', tdates p (tschedule p) (sd_task d) = Some (s', e') /\
                     ((if sd_onstart d then s' else e') + sd_gap d <= f)%Z) /\
  (forall s, tt_pin (ttask_of p t) = Some s -> (s <= f)%Z /\ (tt_mile (ttask_of p t) = true -> f = s)).
Proof.
  intros p H t f e Ht. destruct (team_good p H t _ Ht) as [_ _ _ (b & Hb & Hf & Hm)]. exact (Bound_by_le Hb Hf Hm).
Qed.
Print Assumptions C04_subslot_teams.
