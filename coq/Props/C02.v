(* C02 - Work is booked only inside the resource's working time.
   (a) the regenerated weekday/minute interval tests (Python and Cython) equal the declarative
       working-time specification incl. cross-midnight intervals, for every table and instant;
   (b) in the scheduler model every booking lies in a slot in which its resource works (the model's
       calendar r_work; the correspondence recomputes it from the project text). *)
From Coq Require Import ZArith List.
Require Import SP.Base.PyRt SP.Gen.WorkingHoursCy SP.Gen.WorkingHoursPy SP.Spec.Hours SP.Proofs.HoursProofs
               SP.Model.Sched SP.Proofs.SchedInv SP.Model.Calendar SP.Model.SchedIO SP.Proofs.CalendarProofs.
Require Import SP.Model.Alap SP.Proofs.AlapProofs.
Require Import SP.Model.Ledger SP.Model.SubSlot SP.Proofs.SubSlotProofs.
Import ListNotations.
Open Scope Z_scope.

Theorem C02_onshift_python : forall tbl dt,
  WorkingHours_onShift_local_py tbl dt = hours_spec tbl (dt_weekday dt) (minute_of_day dt).
Proof. exact onShift_py_spec. Qed.
Print Assumptions C02_onshift_python.

Theorem C02_onshift_cython : forall tbl m wd, table_small tbl -> 0 <= wd <= 6 ->
  check_working_hours_fast m wd tbl true = hours_spec tbl wd m.
Proof. intros; now apply check_working_hours_fast_spec. Qed.
Print Assumptions C02_onshift_cython.

Theorem C02_schedule : forall p b, In b (bookings (schedule p)) -> r_work (res_of p (b_res b)) (b_slot b) = true.
Proof. intros p. apply (inv_work (schedule_inv p)). Qed.
Print Assumptions C02_schedule.

(* for a resource whose calendar is computed inside the model (weekly hours or the default calendar, minus
   leave / vacation / holiday intervals): every booking starts at an instant inside the declared hours
   (hours_spec, proved equal to the regenerated tests above) and outside every interval *)
Theorem C02_calendar : forall p b tbl off start g lims,
  In b (bookings (schedule p)) ->
  res_of p (b_res b) = mk_resource_cal tbl off start g (p_upper p) lims ->
  let t := slot_time start g (b_slot b) in
  existsb (in_iv t) off = false /\
  match tbl with Some tb => hours_spec tb (dt_weekday t) (minute_of_day t) | None => default_hours t end = true.
Proof. exact booking_in_calendar. Qed.
Print Assumptions C02_calendar.

(* non-vacuity: Monday 22:00-06:00 covers Monday 23:00 and Tuesday 03:00, not Monday 03:00 *)
Example C02_example :
  hours_spec [(0, [((22, 0), (6, 0))])] 0 (23 * 60) = true /\
  hours_spec [(0, [((22, 0), (6, 0))])] 1 (3 * 60) = true /\
  hours_spec [(0, [((22, 0), (6, 0))])] 0 (3 * 60) = false.
Proof. repeat split. Qed.

(* ---- backward (ALAP) mode: the project record is read backwards (Model/Alap.v: t_deps = successor edges,
   t_pin = own end, t_lb = earliest deadline of the enclosing containers, n = p_upper slots) and the schedule
   is the mirror image of the forward schedule of the mirrored project *)
Theorem C02_alap : forall p b, In b (alap_bookings p) ->
  (b_slot b < p_upper p)%nat /\ r_work (res_of p (b_res b)) (b_slot b) = true.
Proof. exact alap_working. Qed.
Print Assumptions C02_alap.

(* ---- second granularity (Model/SubSlot.v: arbitrary efforts, efficiencies and gaps, tasks that begin and end
   inside slots and share them; one resource per task, no limits), for every well-formed project
   (wf: slot length > 0, efficiencies > 0, a task with work has a positive effort) *)
Theorem C02_subslot : forall p, wf p -> forall r s,
  entries (cells (sschedule p) r s) <> nil -> sr_work (sres_of p r) s = true.
Proof. intros p H r s. exact (sschedule_working p r s). Qed.
Print Assumptions C02_subslot.

Require Import SP.Model.SubSlotTeam SP.Proofs.SubSlotTeamProofs.
Theorem C02_subslot_teams : forall p, twf p -> forall r s,
  entries (cells (tschedule p) r s) <> nil -> sr_work (tres_of p r) s = true.
Proof. intros p H r s. exact (tschedule_working p r s). Qed.
Print Assumptions C02_subslot_teams.
