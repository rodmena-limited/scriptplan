(* C10 - Containers summarise their children and book nothing (scheduler model): a container has
   dates exactly when every leaf below it has; then its start is the earliest and its end the latest
   among them; only leaf tasks are ever on the work list (and so in the ledger). *)
From Coq Require Import List.
Require Import SP.Model.Sched SP.Proofs.SchedFinal.
Require Import SP.Model.Alap SP.Proofs.AlapProofs.

Theorem C10_summary : forall p c, t_leaf (task_of p c) = false -> t_leaves (task_of p c) <> nil ->
  (forall s e, dates p (schedule p) c = Some (s, e) ->
     (forall t, In t (t_leaves (task_of p c)) -> exists d, leaf_dates (schedule p) t = Some d) /\
     (forall t s' e', In t (t_leaves (task_of p c)) -> leaf_dates (schedule p) t = Some (s', e') -> s <= s' /\ e' <= e) /\
     (exists t s' e', In t (t_leaves (task_of p c)) /\ leaf_dates (schedule p) t = Some (s', e') /\ s' = s) /\
     (exists t s' e', In t (t_leaves (task_of p c)) /\ leaf_dates (schedule p) t = Some (s', e') /\ e' = e)) /\
  (dates p (schedule p) c = None -> exists t, In t (t_leaves (task_of p c)) /\ leaf_dates (schedule p) t = None).
Proof. exact container_summary. Qed.
Print Assumptions C10_summary.

Theorem C10_leaf_only : forall p t, In t (work0 p) -> t_leaf (task_of p t) = true.
Proof. exact in_work0_leaf. Qed.

(* ---- backward (ALAP) mode: the project record is read backwards (Model/Alap.v: t_deps = successor edges,
   t_pin = own end, t_lb = earliest deadline of the enclosing containers, n = p_upper slots) and the schedule
   is the mirror image of the forward schedule of the mirrored project *)
Theorem C10_alap : forall p c, t_leaf (task_of p c) = false -> t_leaves (task_of p c) <> nil ->
  (forall s e, alap_dates p c = Some (s, e) ->
     (forall t, In t (t_leaves (task_of p c)) -> exists d, alap_leaf_dates p t = Some d) /\
     (forall t s' e', In t (t_leaves (task_of p c)) -> alap_leaf_dates p t = Some (s', e') -> s <= s' /\ e' <= e) /\
     (exists t s' e', In t (t_leaves (task_of p c)) /\ alap_leaf_dates p t = Some (s', e') /\ s' = s) /\
     (exists t s' e', In t (t_leaves (task_of p c)) /\ alap_leaf_dates p t = Some (s', e') /\ e' = e)) /\
  (alap_dates p c = None -> exists t, In t (t_leaves (task_of p c)) /\ alap_leaf_dates p t = None).
Proof. exact alap_container_summary. Qed.
Print Assumptions C10_alap.

(* ---- second granularity (Model/SubSlot.v) *)
Require Import SP.Model.SubSlot SP.Proofs.SubSlotProofs.
From Coq Require Import ZArith.
Theorem C10_subslot : forall p c, s_leaf (stask_of p c) = false -> s_leaves (stask_of p c) <> nil ->
  let st := sschedule p in
  (forall s e, sdates p st c = Some (s, e) ->
     (forall t, In t (s_leaves (stask_of p c)) -> exists d, sleaf_dates st t = Some d) /\
     (forall t s' e', In t (s_leaves (stask_of p c)) -> sleaf_dates st t = Some (s', e') -> (s <= s')%Z /\ (e' <= e)%Z) /\
     (exists t s' e', In t (s_leaves (stask_of p c)) /\ sleaf_dates st t = Some (s', e') /\ s' = s) /\
     (exists t s' e', In t (s_leaves (stask_of p c)) /\ sleaf_dates st t = Some (s', e') /\ e' = e)) /\
  (sdates p st c = None -> exists t, In t (s_leaves (stask_of p c)) /\ sleaf_dates st t = None).
Proof. intros p c Hc Hne st. unfold sdates. rewrite Hc. exact (sspan_spec st _ Hne). Qed.
Print Assumptions C10_subslot.

(* ---- second granularity, teams with limits (Model/SubSlotTeam.v) *)
Require Import SP.Model.SubSlotTeam.
Theorem C10_subslot_teams : forall p c, tt_leaf (ttask_of p c) = false -> tt_leaves (ttask_of p c) <> nil ->
  let st := tschedule p in
  (forall s e, tdates p st c = Some (s, e) ->
     (forall t, In t (tt_leaves (ttask_of p c)) -> exists d, sleaf_dates st t = Some d) /\
     (forall t s' e', In t (tt_leaves (ttask_of p c)) -> sleaf_dates st t = Some (s', e') -> (s <= s')%Z /\ (e' <= e)%Z) /\
     (exists t s' e', In t (tt_leaves (ttask_of p c)) /\ sleaf_dates st t = Some (s', e') /\ s' = s) /\
     (exists t s' e', In t (tt_leaves (ttask_of p c)) /\ sleaf_dates st t = Some (s', e') /\ e' = e)) /\
  (tdates p st c = None -> exists t, In t (tt_leaves (ttask_of p c)) /\ sleaf_dates st t = None).
Proof. intros p c Hc Hne st. unfold tdates. rewrite Hc. exact (sspan_spec st _ Hne). Qed.
Print Assumptions C10_subslot_teams.
