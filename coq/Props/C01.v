(* C01 - A resource is never double-booked.
   (a) cell level, sub-slot dialect: EVERY sequence of offset / book / finish-and-release operations
       on one (resource, slot) cell keeps  sum(entries) <= used <= slot length, all entries >= 0, and
       the entries can be laid out inside the slot without overlapping (Model/Ledger.v, exact rationals;
       tied to ResourceScenario.available/book and TaskScenario._calculatePreciseEndTimeAndRelease by the
       operation-sequence correspondence of harness/props/c01.py);
   (b) scheduler level, whole-slot dialect: in the final state of the scheduler model no
       (resource, slot) pair is booked twice, for every project (Model/Sched.v). *)
From Coq Require Import QArith List.
Require Import SP.Proofs.LedgerProofs SP.Model.Sched SP.Proofs.SchedInv SP.Proofs.SchedFinal.
Require Import SP.Model.Alap SP.Proofs.AlapProofs.
Require Import SP.Model.Ledger SP.Model.SubSlot SP.Proofs.SubSlotProofs SP.Proofs.SubSlotRun.
Import ListNotations.

Theorem C01_cell : forall G ops, (0 < G)%Q -> Forall (op_ok G) ops -> Ledger.Inv G (run G ops).
Proof. intros; now apply run_inv. Qed.
Print Assumptions C01_cell.

Theorem C01_layout : forall G c, Ledger.Inv G c ->
  (forall t a b, In (t, a, b) (layout 0 (entries c)) -> (0 <= a /\ a <= b /\ b <= G)%Q) /\
  (forall i j t1 a1 b1 t2 a2 b2, (i < j)%nat ->
     nth_error (layout 0 (entries c)) i = Some (t1, a1, b1) ->
     nth_error (layout 0 (entries c)) j = Some (t2, a2, b2) -> (b1 <= a2)%Q) /\
  Forall2 (fun e x => fst e = fst (fst x) /\ (snd x - snd (fst x) == snd e)%Q) (entries c) (layout 0 (entries c)).
Proof.
  intros G c H. destruct (inv_layout G c H) as [A B]. split; [exact A|]. split; [exact B|]. apply layout_lengths.
Qed.
Print Assumptions C01_layout.

Theorem C01_schedule : forall p, NoDup (map key (bookings (schedule p))).
Proof. intros p. apply (inv_nodup (schedule_inv p)). Qed.
Print Assumptions C01_schedule.

(* bookings exist only for tasks of the work list, i.e. leaf tasks: containers book nothing *)
Theorem C01_leaf_only : forall p t, In t (work0 p) -> t_leaf (task_of p t) = true.
Proof. exact in_work0_leaf. Qed.

(* non-vacuity: a shared slot - task 0 books the slot and keeps 1800 s, task 1 takes the rest and keeps
   600 s, task 2 may take at most 100 s, task 3 takes what is left, task 4 finds the slot full *)
Definition C01_example_ops : list op :=
  [Book 0 None; Finish 0 1800; Book 1 None; Finish 1 600; Book 2 (Some 100); Book 3 None; Book 4 None].
Example C01_example_total : (total (entries (run 3600 C01_example_ops)) == 3600)%Q /\ length (entries (run 3600 C01_example_ops)) = 4%nat.
Proof. split; vm_compute; reflexivity. Qed.
Example C01_example_hyp : Forall (op_ok 3600) C01_example_ops.
Proof. repeat constructor; cbn; try discriminate. Qed.

(* ---- backward (ALAP) mode: the project record is read backwards (Model/Alap.v: t_deps = successor edges,
   t_pin = own end, t_lb = earliest deadline of the enclosing containers, n = p_upper slots) and the schedule
   is the mirror image of the forward schedule of the mirrored project *)
Theorem C01_alap : forall p, NoDup (map key (alap_bookings p)).
Proof. exact alap_no_double_booking. Qed.
Print Assumptions C01_alap.

(* ---- second granularity (Model/SubSlot.v: arbitrary efforts, efficiencies and gaps, tasks that begin and end
   inside slots and share them; one resource per task, no limits), for every well-formed project
   (wf: slot length > 0, efficiencies > 0, a task with work has a positive effort) *)
Theorem C01_subslot : forall p, wf p -> forall r s,
  Ledger.Inv (inject_Z (sp_G p)) (cells (sschedule p) r s).
Proof. intros p H r s. exact (proj1 (sschedule_inv H) r s). Qed.
Print Assumptions C01_subslot.

(* ---- second granularity, TEAMS (Model/SubSlotTeam.v: gate, seconds common to all members, credit at the best
   member's efficiency, release of every member's last slot) *)
Require Import SP.Model.SubSlotTeam SP.Proofs.SubSlotTeamProofs.
Theorem C01_subslot_teams : forall p, twf p -> forall r s,
  Ledger.Inv (inject_Z (tp_G p)) (cells (tschedule p) r s).
Proof. intros p H r s. exact (tschedule_inv p H r s). Qed.
Print Assumptions C01_subslot_teams.
