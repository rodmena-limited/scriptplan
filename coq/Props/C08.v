(* C08 - No eligible working time is left idle (ASAP, scheduler model): for a task on a single resource
   with no limit in play, every slot between its dependency bound and its end is used by the task,
   lies outside the resource's working time, or is booked for another task - in the final ledger.
   The ALAP half is checked on the implementation only. *)
From Coq Require Import List.
Require Import SP.Model.Sched SP.Proofs.SchedWalk SP.Proofs.SchedTeam.
Require Import SP.Model.Alap SP.Proofs.AlapProofs.
Import ListNotations.

Theorem C08_asap : forall p t r f e,
  leaf_dates (schedule p) t = Some (f, e) -> t_need (task_of p t) <> 0 ->
  t_team (task_of p t) = [r] -> limits_of p t r = [] ->
  exists b, b <= f /\ (forall s, t_pin (task_of p t) = Some s -> b = s) /\
    (t_pin (task_of p t) = None -> forall d, In d (t_deps (task_of p t)) ->
       exists s' e', dates p (schedule p) (d_task d) = Some (s', e') /\ (if d_onstart d then s' else e') + d_gap d <= b) /\
    forall x, b <= x -> x < e ->
      In (mk t r x) (bookings (schedule p)) \/ r_work (res_of p r) x = false \/
      exists y, In y (bookings (schedule p)) /\ b_res y = r /\ b_slot y = x /\ b_task y <> t.
Proof. exact no_idle. Qed.
Print Assumptions C08_asap.

(* ---- backward (ALAP) mode: the project record is read backwards (Model/Alap.v: t_deps = successor edges,
   t_pin = own end, t_lb = earliest deadline of the enclosing containers, n = p_upper slots) and the schedule
   is the mirror image of the forward schedule of the mirrored project *)
(* latest fit: dl is the deadline (own end | earliest successor start minus gap, container deadlines, project
   end); between the task's start and dl every slot is the task's, non-working, or another task's *)
Theorem C08_alap : forall p t r f e, alap_leaf_dates p t = Some (f, e) -> t_need (task_of p t) <> 0 ->
  t_team (task_of p t) = [r] -> limits_of p t r = [] ->
  exists dl, e <= dl /\ dl <= p_upper p /\
    (forall s, t_pin (task_of p t) = Some s -> s <= p_upper p -> dl = s) /\
    (t_pin (task_of p t) = None -> forall d, In d (t_deps (task_of p t)) ->
       exists s' e', alap_dates p (d_task d) = Some (s', e') /\ dl + d_gap d <= (if d_onstart d then e' else s')) /\
    forall x, f <= x -> x < dl ->
      In (mk t r x) (alap_bookings p) \/ r_work (res_of p r) x = false \/
      exists y, In y (alap_bookings p) /\ b_res y = r /\ b_slot y = x /\ b_task y <> t.
Proof. exact alap_no_idle. Qed.
Print Assumptions C08_alap.

(* ---- teams and limits: a slot between bound and end (start and deadline in backward mode) that the task did
   not take has, in the FINAL schedule, a team member that does not work then, or a member booked for another
   task, or a limit (of the member, of one of its groups, of the task or of one of its containers) without
   room for the whole team in that period *)
Theorem C08_asap_teams_and_limits : forall p t f e, leaf_dates (schedule p) t = Some (f, e) -> t_need (task_of p t) <> 0 ->
  NoDup (t_team (task_of p t)) ->
  exists b, b <= f /\ (forall s, t_pin (task_of p t) = Some s -> b = s) /\
    (t_pin (task_of p t) = None -> forall d, In d (t_deps (task_of p t)) ->
       exists s' e', dates p (schedule p) (d_task d) = Some (s', e') /\ (if d_onstart d then s' else e') + d_gap d <= b) /\
    forall x, b <= x -> x < e ->
      (forall r, In r (t_team (task_of p t)) -> In (mk t r x) (bookings (schedule p))) \/
      exists r, In r (t_team (task_of p t)) /\
        (r_work (res_of p r) x = false \/
         (exists y, In y (bookings (schedule p)) /\ b_res y = r /\ b_slot y = x /\ b_task y <> t) \/
         (exists l, In l (limits_of p t r) /\
            l_value (lim_of p l) < usage p (schedule p) l (l_period (lim_of p l) x) + team_count p l t (t_team (task_of p t)))).
Proof. exact no_idle_team. Qed.
Print Assumptions C08_asap_teams_and_limits.

Theorem C08_alap_teams_and_limits : forall p t f e, alap_leaf_dates p t = Some (f, e) -> t_need (task_of p t) <> 0 ->
  NoDup (t_team (task_of p t)) ->
  exists dl, e <= dl /\ dl <= p_upper p /\
    (forall s, t_pin (task_of p t) = Some s -> s <= p_upper p -> dl = s) /\
    (t_pin (task_of p t) = None -> forall d, In d (t_deps (task_of p t)) ->
       exists s' e', alap_dates p (d_task d) = Some (s', e') /\ dl + d_gap d <= (if d_onstart d then e' else s')) /\
    forall x, f <= x -> x < dl ->
      (forall r, In r (t_team (task_of p t)) -> In (mk t r x) (alap_bookings p)) \/
      exists r, In r (t_team (task_of p t)) /\
        (r_work (res_of p r) x = false \/
         (exists y, In y (alap_bookings p) /\ b_res y = r /\ b_slot y = x /\ b_task y <> t) \/
         (exists l, In l (limits_of p t r) /\
            l_value (lim_of p l) <
            usage p {| bookings := alap_bookings p; placed := nil |} l (l_period (lim_of p l) x) + team_count p l t (t_team (task_of p t)))).
Proof. exact alap_no_idle_team. Qed.
Print Assumptions C08_alap_teams_and_limits.

(* ---- second granularity (Model/SubSlot.v): NoIdle - there is a bound b (the task's own start if pinned, else no
   earlier than the inherited start and every predecessor's end (start) plus gap) such that every slot from the slot
   of b up to the last slot the task booked, in which the task has no entry, is in the FINAL ledger outside the
   working time of its resource, or full (at most 1e-6 s left), or closed by a limit whose count for that period has
   reached its value *)
Require Import SP.Model.SubSlot SP.Proofs.SubSlotProofs SP.Proofs.SubSlotIdle SP.Proofs.SubSlotRun.
Theorem C08_subslot : forall p, wf p -> forall t f e,
  sleaf_dates (sschedule p) t = Some (f, e) -> s_mile (stask_of p t) = false -> NoIdle p (sschedule p) t.
Proof.
  intros p H t f e Ht Hm. destruct (gs_bound p _ _ _ _ (sfinal_good H t Ht)) as (b & Hb & _ & _ & H0 & Hi).
  exact (NoIdle_from p _ t b H0 Hb (Hi Hm)).
Qed.
Print Assumptions C08_subslot.

(* ---- second granularity, teams with limits (Model/SubSlotTeam.v), no member allocated twice: TNoIdle - there is a
   bound b as above such that for every slot from the slot of b up to the last slot the team booked, in which no member
   has an entry of the task, some member r of the team is in the FINAL ledger off, or full (at most 1e-6 s left), or
   closed by a limit whose count for that period, together with the tentative bookings of the members checked before r
   (TaskScenario._countTentativeBooking), has reached its value *)
Require Import SP.Model.SubSlotTeam SP.Proofs.SubSlotTeamProofs SP.Proofs.SubSlotTeamIdle.
Theorem C08_subslot_teams : forall p, twf p -> (forall t, NoDup (tt_team (ttask_of p t))) -> forall t f e,
  sleaf_dates (tschedule p) t = Some (f, e) -> tt_mile (ttask_of p t) = false -> TNoIdle p (tschedule p) t.
Proof. exact team_no_idle. Qed.
Print Assumptions C08_subslot_teams.
