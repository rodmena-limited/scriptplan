(* C14 - Shifting the calendar by whole weeks shifts the schedule by the same amount.
   Every date enters the scheduler model only through (a) the per-slot working flags of the resources and
   (b) the per-slot period indexes of the limits; slots are relative to the project start.  Both tables
   are invariant when the project start and every leave / vacation / holiday interval move by the same
   whole number of weeks - for every hours table (or the default calendar), every interval list, every
   start, resolution and horizon, across month and year ends, leap days and 53-week years (no calendar
   case analysis is involved: weekday, hour, minute, day and Monday-week differences are arithmetic).
   Pinned starts, gaps and deadlines are slot offsets from the start and do not change.  Equal tables give
   the same model run, so every reported date moves by exactly the offset.  The period index is the
   REGENERATED Limit._idx_to_sb_idx; hours_spec is proved equal to the regenerated on-shift tests (C02). *)
From Coq Require Import ZArith List.
Require Import SP.Gen.LimitsPy SP.Model.Calendar SP.Proofs.CalendarProofs SP.Proofs.LimitsIdx.
Open Scope Z_scope.

Theorem C14_working_table : forall tbl off start g upper k,
  work_table tbl (map (shift_iv (604800 * k)) off) (start + 604800 * k) g upper = work_table tbl off start g upper.
Proof. exact work_table_shift. Qed.
Print Assumptions C14_working_table.

Theorem C14_period_table : forall start g period upper k, period = 86400 \/ period = 604800 ->
  period_table (start + 604800 * k) g period upper = period_table start g period upper.
Proof. exact period_table_shift. Qed.
Print Assumptions C14_period_table.

Theorem C14_period_index : forall start g p i k, p = 86400 \/ p = 604800 ->
  Limit_idx_to_sb_idx (start + 604800 * k) g p i = Limit_idx_to_sb_idx start g p i.
Proof. intros; now apply idx_shift_weeks. Qed.
