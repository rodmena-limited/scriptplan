(* C05 - Daily and weekly limits are never exceeded.
   (a) the regenerated period index of a limit is the calendar-day difference (daily) and the
       Monday-week difference (weekly): two slots share a counter iff they lie in the same calendar
       day / ISO week, for every start, resolution and slot index - no horizon bound;
   (b) in the scheduler model, for every limit and every period the number of bookings the limit
       counts never exceeds its value, in every reachable final state. *)
From Coq Require Import ZArith List.
Require Import SP.Gen.LimitsPy SP.Spec.Cal SP.Proofs.LimitsIdx SP.Model.Sched SP.Proofs.SchedInv.
Require Import SP.Model.Alap SP.Proofs.AlapProofs.
Open Scope Z_scope.

Theorem C05_daily_period : forall start g i j,
  Limit_idx_to_sb_idx start g 86400 i = Limit_idx_to_sb_idx start g 86400 j
  <-> day_of (start + i * g) = day_of (start + j * g).
Proof. exact daily_same. Qed.
Theorem C05_weekly_period : forall start g i j,
  Limit_idx_to_sb_idx start g 604800 i = Limit_idx_to_sb_idx start g 604800 j
  <-> week_of (start + i * g) = week_of (start + j * g).
Proof. exact weekly_same. Qed.
Theorem C05_period_nonneg : forall start g p i, 0 <= g -> 0 <= i -> p = 86400 \/ p = 604800 ->
  0 <= Limit_idx_to_sb_idx start g p i.
Proof. exact idx_nonneg. Qed.
Print Assumptions C05_weekly_period.

Theorem C05_schedule : forall p l k, (usage p (schedule p) l k <= l_value (lim_of p l))%nat.
Proof. intros p. apply (inv_limit (schedule_inv p)). Qed.
Print Assumptions C05_schedule.

(* ---- backward (ALAP) mode: the project record is read backwards (Model/Alap.v: t_deps = successor edges,
   t_pin = own end, t_lb = earliest deadline of the enclosing containers, n = p_upper slots) and the schedule
   is the mirror image of the forward schedule of the mirrored project *)
Theorem C05_alap : forall p l k,
  (usage p {| bookings := alap_bookings p; placed := nil |} l k <= l_value (lim_of p l))%nat.
Proof. exact alap_limits. Qed.
Print Assumptions C05_alap.

(* ---- second granularity (Model/SubSlot.v): a limit counts BOOKINGS - one per (task, resource, slot) whatever
   part of the slot is used, which is what Limit.inc counts - and in every period it counts at most its value *)
Require Import SP.Model.SubSlot SP.Proofs.SubSlotProofs.
Theorem C05_subslot : forall p l k,
  (susage p (sschedule p) l k <= sl_value (slim_of p l))%nat.
Proof. exact subslot_limits. Qed.
Print Assumptions C05_subslot.

(* the same in terms of the ledger: the (task, resource, slot) cells holding work that a limit counts in one period are
   at most value many; each holds at most one slot length (C01_subslot), so the working time counted never exceeds
   value x slot length, which is the declared limit *)
Theorem C05_subslot_ledger : forall p l k (L : list (nat * nat * nat)), NoDup L ->
  (forall b, In b L -> tent (fst (fst b)) (cells (sschedule p) (snd (fst b)) (snd b)) <> nil /\
                      scounts p l b = true /\ sl_period (slim_of p l) (snd b) = k) ->
  (length L <= sl_value (slim_of p l))%nat.
Proof. intros p l k L. exact (limit_cells l k L (subslot_limits p) (subslot_ecov p)). Qed.
Print Assumptions C05_subslot_ledger.

(* ---- second granularity, teams (Model/SubSlotTeam.v): the limit check of each member sees the tentative bookings of
   the members checked before it (TaskScenario._countTentativeBooking), a member whose limit is used up is skipped
   when the members are booked; whatever the team, in every period every limit counts at most its value *)
Require Import SP.Model.SubSlotTeam SP.Proofs.SubSlotTeamProofs.
Theorem C05_subslot_teams : forall p l k,
  (tusage p (sbooked (tschedule p)) l k <= sl_value (tlim_of p l))%nat.
Proof. exact team_limits. Qed.
Print Assumptions C05_subslot_teams.

Theorem C05_subslot_teams_ledger : forall p l k (L : list (nat * nat * nat)), NoDup L ->
  (forall b, In b L -> tent (fst (fst b)) (cells (tschedule p) (snd (fst b)) (snd b)) <> nil /\
                      tcounts p l b = true /\ sl_period (tlim_of p l) (snd b) = k) ->
  (length L <= sl_value (tlim_of p l))%nat.
Proof. intros p l k L. exact (limit_cells l k L (team_limits p) (team_ecov p)). Qed.
Print Assumptions C05_subslot_teams_ledger.
