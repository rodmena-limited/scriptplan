(* C11 - Scheduling is total.  In the model termination is structural: the main loop runs on fuel =
   length of the work list and removes one task per iteration, each slot walk on fuel = slots left
   to the horizon - [schedule] is a total Gallina function, so it terminates within
   (#leaves) x (#slots + 1) walk steps.  What remains to state: no slot outside the horizon is ever
   touched (so no scoreboard index error can arise: C17_outside_rejected is never triggered), and a
   task placed by the loop lies inside the horizon. *)
From Coq Require Import List.
Require Import SP.Model.Sched SP.Proofs.SchedInv SP.Proofs.SchedMain SP.Proofs.SchedFinal.
Require Import SP.Model.Alap SP.Proofs.AlapProofs.

Theorem C11_slots_in_horizon : forall p b, In b (bookings (schedule p)) -> b_slot b <= p_upper p.
Proof. intros p. apply (inv_range (schedule_inv p)). Qed.
Print Assumptions C11_slots_in_horizon.

Theorem C11_dates_in_horizon : forall p t f e, leaf_dates (schedule p) t = Some (f, e) ->
  t_pin (task_of p t) = None \/ t_need (task_of p t) <> 0 -> f <= e /\ e <= S (p_upper p).
Proof. intros p t f e Ht. exact (Good_horizon (final_good p t f e Ht)). Qed.
Print Assumptions C11_dates_in_horizon.

(* ---- backward (ALAP) mode: the project record is read backwards (Model/Alap.v: t_deps = successor edges,
   t_pin = own end, t_lb = earliest deadline of the enclosing containers, n = p_upper slots) and the schedule
   is the mirror image of the forward schedule of the mirrored project *)
Theorem C11_alap : forall p,
  (forall t f e, alap_leaf_dates p t = Some (f, e) -> f <= e /\ e <= p_upper p) /\
  (forall b, In b (alap_bookings p) -> b_slot b < p_upper p).
Proof. intros p. split; [exact (alap_dates_in_horizon p)|intros b Hb; exact (proj1 (alap_working p b Hb))]. Qed.
Print Assumptions C11_alap.

(* ---- second granularity: every slot a placed task booked lies inside the horizon (first clause of Booked) *)
Require Import SP.Model.SubSlot SP.Proofs.SubSlotProofs SP.Proofs.SubSlotRun.
Theorem C11_subslot : forall p, wf p -> forall t f e,
  sleaf_dates (sschedule p) t = Some (f, e) -> s_mile (stask_of p t) = false ->
  exists bs, Booked p (sschedule p) t f e bs.
Proof. intros p H t f e Ht. now destruct (sfinal_good H t Ht). Qed.
Print Assumptions C11_subslot.

(* ---- second granularity, teams with limits (Model/SubSlotTeam.v), for EVERY project (no well-formedness needed):
   every cell the scheduler writes, every booking event it records for the limits and every ledger entry of the final
   state lies in a slot 0 .. tp_upper - nothing outside the horizon is touched, whatever bounds, gaps and efforts say *)
Require Import SP.Model.SubSlotTeam SP.Proofs.SubSlotTeamProofs.
Theorem C11_subslot_teams : forall p,
  (forall r s, In (r, s) (stouched (tschedule p)) -> s <= tp_upper p) /\
  (forall t r s, In (t, r, s) (sbooked (tschedule p)) -> s <= tp_upper p) /\
  (forall t r s, SP.Proofs.SubSlotProofs.tent t (cells (tschedule p) r s) <> nil -> s <= tp_upper p).
Proof.
  intros p. destruct (team_in_horizon p) as [A B _]. split; [exact A|]. split; [exact B|exact (team_entries_in_horizon p)].
Qed.
Print Assumptions C11_subslot_teams.

(* ... and for every well-formed team project (slot length > 0, efficiencies > 0, positive efforts) every reported start -
   of a milestone or of a task with work, placed by the pre-pass or by the main loop - lies inside the horizon:
   0 <= start < (tp_upper + 1) * G; with C06_subslot_teams (start <= end) no date before the project start is reported *)
From Coq Require Import ZArith.
Theorem C11_subslot_teams_starts : forall p, twf p -> forall t f e, sleaf_dates (tschedule p) t = Some (f, e) ->
  (0 <= f < (Z.of_nat (tp_upper p) + 1) * tp_G p)%Z.
Proof. intros p H t f e Ht. exact (gt_window p _ _ _ (team_good p H t _ Ht)). Qed.
Print Assumptions C11_subslot_teams_starts.
