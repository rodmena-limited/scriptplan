(* C06 - Reported start and end frame exactly the booked work (scheduler model, whole slots):
   a milestone has start = end; a task with work has start < end, every team member is booked in
   the slot of the start and in the slot before the end, and every booking of the task lies in
   [start, end).  Sub-slot placement inside a slot is covered at cell level (C01/C03) and on the
   implementation by the oracle of harness/oracles.py. *)
From Coq Require Import List ZArith.
Require Import SP.Model.Sched SP.Proofs.SchedWalk SP.Proofs.SchedFinal.
Require Import SP.Model.Alap SP.Proofs.AlapProofs.
Require Import SP.Model.SubSlot SP.Proofs.SubSlotProofs SP.Proofs.SubSlotRun.

Theorem C06_frame : forall p t f e, leaf_dates (schedule p) t = Some (f, e) ->
  (t_need (task_of p t) = 0 -> f = e) /\
  (t_need (task_of p t) <> 0 ->
     f < e /\
     (forall r, In r (t_team (task_of p t)) ->
        In (mk t r f) (bookings (schedule p)) /\ In (mk t r (e - 1)) (bookings (schedule p))) /\
     (forall x, In x (bookings (schedule p)) -> b_task x = t -> f <= b_slot x < e)).
Proof. exact frame. Qed.
Print Assumptions C06_frame.

(* ---- backward (ALAP) mode: the project record is read backwards (Model/Alap.v: t_deps = successor edges,
   t_pin = own end, t_lb = earliest deadline of the enclosing containers, n = p_upper slots) and the schedule
   is the mirror image of the forward schedule of the mirrored project *)
Theorem C06_alap : forall p t f e, alap_leaf_dates p t = Some (f, e) ->
  (t_need (task_of p t) = 0 -> f = e) /\
  (t_need (task_of p t) <> 0 ->
     f < e /\
     (forall r, In r (t_team (task_of p t)) -> In (mk t r f) (alap_bookings p) /\ In (mk t r (e - 1)) (alap_bookings p)) /\
     (forall x, In x (alap_bookings p) -> b_task x = t -> f <= b_slot x < e)).
Proof. exact alap_frame. Qed.
Print Assumptions C06_alap.

(* ---- second granularity (Model/SubSlot.v: arbitrary efforts, efficiencies and gaps, tasks that begin and end
   inside slots and share them; one resource per task, no limits), for every well-formed project
   (wf: slot length > 0, efficiencies > 0, a task with work has a positive effort) *)
(* with C03_subslot (every booked slot s satisfies s*G <= end and start < (s+1)*G) this is the frame at second
   granularity; a milestone has start = end *)
Theorem C06_subslot : forall p, wf p -> forall t f e, sleaf_dates (sschedule p) t = Some (f, e) ->
  (f <= e)%Z /\ (s_mile (stask_of p t) = true -> f = e).
Proof. intros p H t f e Ht. destruct (sfinal_good H t Ht) as [Ho Hm _ _]. now split. Qed.
Print Assumptions C06_subslot.

(* ---- second granularity, teams with limits (Model/SubSlotTeam.v): start <= end, a milestone has start = end *)
Require Import SP.Model.SubSlotTeam SP.Proofs.SubSlotTeamProofs.
Theorem C06_subslot_teams : forall p, twf p -> forall t f e, sleaf_dates (tschedule p) t = Some (f, e) ->
  (f <= e)%Z /\ (tt_mile (ttask_of p t) = true -> f = e).
Proof. intros p H t f e Ht. destruct (team_good p H t _ Ht) as [Ho _ Hm _]. now split. Qed.
Print Assumptions C06_subslot_teams.
