(* C07 - ASAP schedules equal the priority-ordered earliest-fit schedule.
   Model/Sched.v is the list scheduler itself (pick the first ready task of the list sorted by
   priority then declaration order, place it completely, repeat); the theorem below is the
   declarative half: every placed task took the EARLIEST eligible slots - a slot between its
   dependency bound and its end was skipped only when the team could not be booked there, given
   exactly the bookings of the tasks placed before it plus its own earlier slots.
   The tie to the implementation is the correspondence (all dates and all bookings, exhaustive small
   universe + random core-dialect projects). *)
From Coq Require Import List.
Require Import SP.Model.Sched SP.Proofs.SchedWalk SP.Proofs.SchedFinal.

Theorem C07_earliest_fit : forall p t f e,
  leaf_dates (schedule p) t = Some (f, e) -> t_need (task_of p t) <> 0 ->
  exists b st0,
    b <= f /\ (forall s, t_pin (task_of p t) = Some s -> b = s) /\
    (forall y, In y (bookings st0) -> b_task y <> t /\ In y (bookings (schedule p))) /\
    forall x, b <= x -> x < e ->
      (forall r, In r (t_team (task_of p t)) -> In (mk t r x) (bookings (schedule p))) \/
      (exists stx,
         (forall y, In y (bookings stx) -> In y (bookings st0) \/ (b_task y = t /\ b_slot y < x)) /\
         (forall y, In y (bookings st0) -> In y (bookings stx)) /\
         book_team p stx t x (t_team (task_of p t)) = None).
Proof. exact earliest_fit. Qed.
Print Assumptions C07_earliest_fit.

(* ---- the order of service: the work list holds exactly the leaf tasks, each once, sorted by priority and - among
   equal priorities - by declaration order; a step of the main loop takes the FIRST task of that list whose
   predecessors are all placed (everything before it in the list is not ready) and leaves the order of the rest *)
From Coq Require Import Sorted.
Require Import SP.Proofs.SchedOrder.
Theorem C07_work_list_order : forall p,
  StronglySorted (before p) (sorted_leaves p) /\ NoDup (sorted_leaves p) /\
  forall t, In t (sorted_leaves p) <-> t < length (p_tasks p) /\ t_leaf (task_of p t) = true.
Proof. exact sorted_leaves_spec. Qed.
Print Assumptions C07_work_list_order.

Theorem C07_first_ready : forall p st work t rest, pick p st work = Some (t, rest) ->
  exists pre post, work = pre ++ t :: post /\ rest = pre ++ post /\ ready p st t = true /\
                   forall u, In u pre -> ready p st u = false.
Proof. exact pick_first_ready. Qed.
Print Assumptions C07_first_ready.
