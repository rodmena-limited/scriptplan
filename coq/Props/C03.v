(* C03 - A scheduled task receives exactly its effort.
   (a) slot granularity, scheduler model: a placed task with t_need = k > 0 holds in the final ledger
       exactly k blocks, each block being one slot booked for EVERY member of its team - never less, and
       never a further slot; the team is booked for the same slots (C03_exact_slots).  t_need is the
       requested effort divided by (slot length x efficiency), computed by the harness encoder.
   (b) sub-slot: the amount a finishing task keeps of its last slot is min(need, booked) and the rest is
       given back (C03_release, cell model) - with C01_cell this is the discipline behind "to within the
       one-second rounding".
   The efficiency arithmetic itself, alternatives (exactly one candidate set) and ALAP are decided on the
   implementation by oracles.c03 (partial). *)
From Coq Require Import QArith List.
Require Import SP.Proofs.LedgerProofs SP.Model.Sched SP.Proofs.SchedWalk SP.Proofs.SchedFinal.
Require Import SP.Model.Alap SP.Proofs.AlapProofs.
Require Import SP.Model.Ledger SP.Model.SubSlot SP.Proofs.SubSlotProofs SP.Proofs.SubSlotRun.

Theorem C03_exact_slots : forall p t f e,
  leaf_dates (schedule p) t = Some (f, e) -> t_need (task_of p t) <> 0%nat ->
  exists ss, length ss = t_need (task_of p t) /\
             filter (fun x => Nat.eqb (b_task x) t) (bookings (schedule p)) = concat (map (block p t) ss).
Proof. exact exact_slots. Qed.
Print Assumptions C03_exact_slots.

Theorem C03_release : forall t need l l' booked kept,
  (0 <= need)%Q -> Forall (fun e => 0 <= snd e)%Q l ->
  release_last t need l = Some (l', booked, kept) ->
  (total l' == total l - booked + kept)%Q /\ (0 <= kept)%Q /\ (kept <= booked)%Q /\ (kept <= need)%Q.
Proof. intros t need l l' booked kept H1 H2 H3. destruct (release_last_spec _ _ _ _ _ _ H1 H2 H3) as (A & B & C & D & _). repeat split; assumption. Qed.
Print Assumptions C03_release.

(* ---- backward (ALAP) mode: the project record is read backwards (Model/Alap.v: t_deps = successor edges,
   t_pin = own end, t_lb = earliest deadline of the enclosing containers, n = p_upper slots) and the schedule
   is the mirror image of the forward schedule of the mirrored project *)
Theorem C03_alap : forall p t f e, alap_leaf_dates p t = Some (f, e) -> t_need (task_of p t) <> 0%nat ->
  exists ss, length ss = t_need (task_of p t) /\
             filter (fun x => Nat.eqb (b_task x) t) (alap_bookings p) = concat (map (block p t) ss).
Proof. exact alap_exact_slots. Qed.
Print Assumptions C03_alap.

(* ---- second granularity (Model/SubSlot.v: arbitrary efforts, efficiencies and gaps, tasks that begin and end
   inside slots and share them; one resource per task, no limits), for every well-formed project
   (wf: slot length > 0, efficiencies > 0, a task with work has a positive effort) *)
(* Booked: the task has exactly one entry (t, x) in each booked slot and none elsewhere; every booked slot is
   working time and overlaps [start, end]; effort - 9/2500000 <= (sum of the x) * efficiency <= effort *)
Theorem C03_subslot : forall p, wf p -> forall t f e,
  sleaf_dates (sschedule p) t = Some (f, e) -> s_mile (stask_of p t) = false ->
  exists bs, Booked p (sschedule p) t f e bs.
Proof. intros p H t f e Ht. now destruct (sfinal_good H t Ht). Qed.
Print Assumptions C03_subslot.

(* ---- second granularity, teams (Model/SubSlotTeam.v): TBooked - for EVERY member exactly one entry in each booked
   slot, all of the same length (xr == x: the members work the same seconds), no entry anywhere else, every booked
   slot working time of every member, effort - 9/2500000 <= (sum of x) * best efficiency <= effort *)
Require Import SP.Model.SubSlotTeam SP.Proofs.SubSlotTeamProofs SP.Proofs.SubSlotTeamEffort SP.Proofs.SubSlotTeamIdle.
Theorem C03_subslot_teams : forall p, twf p -> forall t d,
  sleaf_dates (tschedule p) t = Some d -> tt_mile (ttask_of p t) = false ->
  multi (tt_team (ttask_of p t)) = true -> NoDup (tt_team (ttask_of p t)) -> TBooked p (tschedule p) t.
Proof. intros p H t d Ht Hm _ Hnd. exact (team_same_instants p H t d Ht Hm Hnd). Qed.
Print Assumptions C03_subslot_teams.
