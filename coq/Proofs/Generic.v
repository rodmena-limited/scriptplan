(* What the three scheduler models (Model/Sched.v, SubSlot.v, SubSlotTeam.v) have in common, stated once: after a few list
   lemmas, the ready loop (and two runs of it side by side, one with a task more), the priority-sorted work list, the
   milestone pre-pass, container spans and the whole run.  The models are copies
   of one another; each of their functions equals the generic one here at the model's parameters (Proofs/GenericInst.v). *)
From Coq Require Import List Bool ZArith Lia Sorted.
Import ListNotations.

Lemma forallb_ext_in {A} (f g : A -> bool) l : (forall a, In a l -> f a = g a) -> forallb f l = forallb g l.
Proof. induction l as [|a tl IH]; intros H; [reflexivity|]. cbn. rewrite H by now left. f_equal. apply IH. intros; apply H; now right. Qed.

Lemma fold_left_ext_in {A B} (f g : A -> B -> A) l : (forall a b, In b l -> f a b = g a b) -> forall acc, fold_left f l acc = fold_left g l acc.
Proof. induction l as [|b tl IH]; intros H acc; [reflexivity|]. cbn. rewrite H by now left. apply IH. intros; apply H; now right. Qed.

Lemma forallb_false {A} (f : A -> bool) l : forallb f l = false -> exists x, In x l /\ f x = false.
Proof.
  induction l as [|a tl IH]; cbn; [discriminate|]. intros H. apply andb_false_iff in H as [H|H]; [now exists a; auto|].
  destruct (IH H) as (x & Hx & E). exists x. auto.
Qed.

Lemma existsb_eqb_in x l : existsb (Nat.eqb x) l = true <-> In x l.
Proof.
  rewrite existsb_exists. split; [intros (y & Hy & E); apply Nat.eqb_eq in E; now subst|].
  intros H. exists x. split; [exact H|apply Nat.eqb_refl].
Qed.

Lemma filter_all {A} (f : A -> bool) l : (forall x, In x l -> f x = true) -> filter f l = l.
Proof. induction l as [|x tl IH]; intros H; [reflexivity|]. cbn. rewrite H by now left. f_equal. apply IH. intros; apply H; now right. Qed.

Lemma filter_none {A} (f : A -> bool) l : (forall x, In x l -> f x = false) -> filter f l = [].
Proof. induction l as [|x tl IH]; intros H; [reflexivity|]. cbn. rewrite H by now left. apply IH. intros; apply H; now right. Qed.

Lemma filter_map_comm {A B} (u : A -> B) (f : B -> bool) l : filter f (map u l) = map u (filter (fun x => f (u x)) l).
Proof. induction l as [|x l IH]; cbn; [reflexivity|]. destruct (f (u x)); cbn; now rewrite IH. Qed.

(* the i-th element of a mapped list, whatever default the two sides use *)
Lemma nth_map_or {A B} (f : A -> B) l dA dB i :
  (i < length l /\ nth i (map f l) dB = f (nth i l dA)) \/
  (length l <= i /\ nth i (map f l) dB = dB /\ nth i l dA = dA).
Proof.
  destruct (Nat.lt_ge_cases i (length l)) as [H|H].
  - left. split; [exact H|]. rewrite (nth_indep _ dB (f dA)) by now rewrite map_length. apply map_nth.
  - right. split; [exact H|]. split; apply nth_overflow; [now rewrite map_length|exact H].
Qed.

Lemma NoDup_mid {A} (pre post : list A) t : NoDup (pre ++ t :: post) ->
  NoDup (pre ++ post) /\ ~ In t (pre ++ post) /\ forall u, In u (pre ++ post) -> In u (pre ++ t :: post).
Proof.
  intros H. apply NoDup_remove in H as [H1 H2]. split; [exact H1|]. split; [exact H2|].
  intros u. rewrite !in_app_iff. cbn. tauto.
Qed.

Section Pick.
  Variable rdy : nat -> bool.

  Fixpoint pick_by (l : list nat) : option (nat * list nat) :=
    match l with
    | [] => None
    | t :: tl => if rdy t then Some (t, tl)
                 else match pick_by tl with Some (u, rest) => Some (u, t :: rest) | None => None end
    end.

  Lemma pick_by_some : forall work t rest, pick_by work = Some (t, rest) ->
    exists pre post, work = pre ++ t :: post /\ rest = pre ++ post /\ rdy t = true /\ forall u, In u pre -> rdy u = false.
  Proof.
    induction work as [|u tl IH]; intros t rest H; cbn in H; [discriminate|].
    destruct (rdy u) eqn:E.
    - injection H as <- <-. exists [], tl. repeat split; try assumption. intros ? [].
    - destruct (pick_by tl) as [[v rest']|]; [|discriminate]. injection H as <- <-.
      destruct (IH _ _ eq_refl) as (pre & post & -> & -> & E3 & E4). exists (u :: pre), post.
      repeat split; try assumption. intros w [<-|Hw]; [exact E|now apply E4].
  Qed.

  Lemma pick_by_none : forall work, pick_by work = None <-> forall t, In t work -> rdy t = false.
  Proof.
    induction work as [|t tl IH]; cbn; [split; [intros _ t []|reflexivity]|].
    destruct (rdy t) eqn:E.
    - split; [discriminate|]. intros H. rewrite (H t (or_introl eq_refl)) in E. discriminate.
    - destruct (pick_by tl) as [[u r]|].
      + split; [discriminate|]. intros H. discriminate (proj2 IH (fun v Hv => H v (or_intror Hv))).
      + split; [|reflexivity]. intros _ v [<-|Hv]; [exact E|]. now apply (proj1 IH).
  Qed.

  Lemma pick_by_app xs : forall work,
    pick_by (work ++ xs) =
    match pick_by work with
    | Some (t, rest) => Some (t, rest ++ xs)
    | None => match pick_by xs with Some (u, r) => Some (u, work ++ r) | None => None end
    end.
  Proof.
    induction work as [|t tl IH]; cbn [app pick_by]; [destruct (pick_by xs) as [[u r]|]; reflexivity|].
    destruct (rdy t); [reflexivity|]. rewrite IH.
    destruct (pick_by tl) as [[u r]|]; [reflexivity|]. destruct (pick_by xs) as [[u r]|]; reflexivity.
  Qed.
End Pick.

Lemma pick_by_ext rdy rdy' : forall work, (forall t, In t work -> rdy' t = rdy t) -> pick_by rdy' work = pick_by rdy work.
Proof.
  induction work as [|t tl IH]; intros H; [reflexivity|]. cbn. rewrite (H t) by now left.
  rewrite IH by (intros; apply H; now right). reflexivity.
Qed.

Section Loop.
  Variables (St : Type) (ready : St -> nat -> bool) (step : St -> nat -> St).

  Fixpoint loop_by (fuel : nat) (work : list nat) (st : St) : St :=
    match fuel with
    | O => st
    | S fuel' =>
        match pick_by (ready st) work with
        | Some (t, rest) => loop_by fuel' rest (step st t)
        | None => st
        end
    end.

  Theorem loop_by_inv (J : St -> list nat -> Prop) :
    (forall st pre t post, J st (pre ++ t :: post) -> ready st t = true -> J (step st t) (pre ++ post)) ->
    forall fuel work st, J st work -> exists rest, J (loop_by fuel work st) rest.
  Proof.
    intros Hstep. induction fuel as [|fuel IH]; intros work st HJ; cbn [loop_by]; [eauto|].
    destruct (pick_by (ready st) work) as [[t rest]|] eqn:E; [|eauto].
    apply pick_by_some in E as (pre & post & -> & -> & Hr & _). apply IH. now apply Hstep.
  Qed.

  Corollary loop_by_inv0 (I : St -> Prop) :
    (forall st t, I st -> I (step st t)) -> forall fuel work st, I st -> I (loop_by fuel work st).
  Proof.
    intros Hstep fuel work st Hi.
    destruct (loop_by_inv (fun st _ => I st) (fun st _ t _ H _ => Hstep st t H) fuel work st Hi) as [_ H]. exact H.
  Qed.
End Loop.
Arguments loop_by {St} ready step fuel work st.

(* two runs, the second with one more task n at the end of its work list, or not even that (xs = [] or [n]: its pre-pass
   may have placed n already).  R relates the states while both serve the same tasks; once the second run has served n
   only the weaker A is left, and that is enough to keep the others unready *)
Section Sim.
  Variables (St St' : Type) (ready : St -> nat -> bool) (step : St -> nat -> St)
            (ready' : St' -> nat -> bool) (step' : St' -> nat -> St').
  Variables (R A : St -> St' -> Prop) (n : nat).
  Hypothesis R_A : forall st st', R st st' -> A st st'.
  Hypothesis A_ready : forall st st' t, A st st' -> t <> n -> ready' st' t = ready st t.
  Hypothesis R_step : forall st st' t, R st st' -> t <> n -> R (step st t) (step' st' t).
  Hypothesis A_last : forall st st', A st st' -> A st (step' st' n).

  (* once nothing of the common work is ready, the second run serves n or stops, and stops after that: serving n
     makes nothing ready (A_last, A_ready) *)
  Lemma loop_by_last st st' work fuel :
    A st st' -> (forall t, In t work -> t <> n) -> (forall t, In t work -> ready st t = false) ->
    A st (loop_by ready' step' fuel (work ++ [n]) st').
  Proof.
    intros Ha Hw Hnr. destruct fuel as [|fuel]; [exact Ha|]. cbn [loop_by].
    assert (Hp : forall st2, A st st2 -> pick_by (ready' st2) work = None).
    { intros st2 Ha2. apply pick_by_none. intros t Ht. rewrite (A_ready _ _ _ Ha2 (Hw t Ht)). now apply Hnr. }
    rewrite pick_by_app, (Hp st' Ha). cbn [pick_by]. destruct (ready' st' n); [|exact Ha].
    rewrite app_nil_r. destruct fuel as [|fuel]; cbn [loop_by]; [|rewrite (Hp _ (A_last _ _ Ha))]; now apply A_last.
  Qed.

  Theorem loop_by_sim : forall fuel work st st' xs,
    R st st' -> (forall t, In t work -> t <> n) -> length work = fuel -> xs = [] \/ xs = [n] ->
    A (loop_by ready step fuel work st) (loop_by ready' step' (fuel + length xs) (work ++ xs) st').
  Proof.
    induction fuel as [|fuel IH]; intros work st st' xs Hr Hw Hlen Hxs.
    - destruct work; [|discriminate]. destruct Hxs as [->| ->]; [now apply R_A|].
      apply (loop_by_last st st' []); [now apply R_A|intros ? []|intros ? []].
    - assert (Hp' : pick_by (ready' st') work = pick_by (ready st) work)
        by (apply pick_by_ext; intros; apply A_ready; auto).
      destruct (pick_by (ready st) work) as [[t rest]|] eqn:Ep.
      + cbn [Nat.add loop_by]. rewrite Ep, pick_by_app, Hp'.
        apply pick_by_some in Ep as (pre & post & -> & -> & _). rewrite app_length in Hlen. cbn in Hlen.
        apply IH; [apply R_step; [exact Hr|apply Hw, in_elt]| |rewrite app_length; lia|exact Hxs].
        intros v Hv. apply Hw. rewrite in_app_iff in *. cbn. tauto.
      + replace (loop_by ready step (S fuel) work st) with st by (cbn [loop_by]; now rewrite Ep).
        destruct Hxs as [->| ->]; [|apply loop_by_last; [now apply R_A|exact Hw|now apply pick_by_none]].
        rewrite app_nil_r. cbn [Nat.add loop_by]. rewrite Hp'. now apply R_A.
  Qed.
End Sim.
Arguments loop_by_sim {St St' ready step ready' step'} R A n.

Section Sorted.
  Variable prio : nat -> Z.

  Fixpoint insert_by (t : nat) (l : list nat) : list nat :=
    match l with
    | [] => [t]
    | u :: tl => if (prio u <? prio t)%Z then t :: l else u :: insert_by t tl
    end.

  Definition before_by (u v : nat) : Prop := (prio v < prio u)%Z \/ (prio u = prio v /\ u < v).

  Lemma insert_by_in t : forall l x, In x (insert_by t l) <-> x = t \/ In x l.
  Proof.
    induction l as [|u tl IH]; intros x; cbn; [intuition congruence|].
    destruct (prio u <? prio t)%Z; cbn; [intuition congruence|]. rewrite IH. intuition congruence.
  Qed.

  Lemma insert_by_nodup t : forall l, ~ In t l -> NoDup l -> NoDup (insert_by t l).
  Proof.
    induction l as [|u tl IH]; intros Hn Hd; cbn; [constructor; [tauto|constructor]|].
    destruct (prio u <? prio t)%Z; [constructor; assumption|].
    inversion Hd; subst. constructor.
    - rewrite insert_by_in. intros [->|H]; [apply Hn; now left|contradiction].
    - apply IH; [intros H; apply Hn; now right|assumption].
  Qed.

  Lemma insert_by_sorted t : forall l, StronglySorted before_by l -> (forall u, In u l -> u < t) ->
    StronglySorted before_by (insert_by t l).
  Proof.
    induction l as [|u tl IH]; intros Hs Hlt; cbn; [constructor; [constructor|constructor]|].
    inversion Hs as [|? ? Htl Hall]; subst.
    destruct (Z.ltb_spec (prio u) (prio t)) as [L|L].
    - constructor; [exact Hs|]. constructor; [left; exact L|].
      rewrite Forall_forall in Hall |- *. intros v Hv. specialize (Hall v Hv). left.
      destruct Hall as [A|[A _]]; lia.
    - constructor.
      + apply IH; [exact Htl|intros v Hv; apply Hlt; now right].
      + rewrite Forall_forall in Hall |- *. intros v Hv. apply insert_by_in in Hv as [->|Hv]; [|now apply Hall].
        assert (u < t) by (apply Hlt; now left).
        destruct (Z.eq_dec (prio u) (prio t)) as [E|E]; [right; split; assumption|left; lia].
  Qed.

  Lemma insert_by_last t : forall l, (forall u, In u l -> (prio t <= prio u)%Z) -> insert_by t l = l ++ [t].
  Proof.
    induction l as [|u tl IH]; intros Hl; [reflexivity|]. cbn [insert_by app].
    destruct (Z.ltb_spec (prio u) (prio t)) as [H|H]; [specialize (Hl u (or_introl eq_refl)); lia|].
    f_equal. apply IH. intros; apply Hl; now right.
  Qed.

  Variable leaf : nat -> bool.

  Definition sorted_by (n : nat) : list nat :=
    fold_left (fun acc t => if leaf t then insert_by t acc else acc) (seq 0 n) [].

  Lemma sorted_by_S n : sorted_by (S n) = if leaf n then insert_by n (sorted_by n) else sorted_by n.
  Proof. unfold sorted_by. now rewrite seq_S, fold_left_app. Qed.

  Theorem sorted_by_spec n :
    StronglySorted before_by (sorted_by n) /\ NoDup (sorted_by n) /\
    forall t, In t (sorted_by n) <-> t < n /\ leaf t = true.
  Proof.
    induction n as [|n (Hs & Hd & Hin)]; [split; [constructor|split; [constructor|cbn; intuition lia]]|].
    rewrite sorted_by_S. destruct (leaf n) eqn:El.
    - assert (Hlt : forall u, In u (sorted_by n) -> u < n) by (intros u Hu; now apply Hin).
      split; [now apply insert_by_sorted|]. split.
      + apply insert_by_nodup; [|exact Hd]. intros H. specialize (Hlt n H). lia.
      + intros t. rewrite insert_by_in, Hin. split; [intros [->|[? ?]]; split; (lia || assumption)|].
        intros [H1 H2]. destruct (Nat.eq_dec t n); [now left|right; split; [lia|exact H2]].
    - split; [exact Hs|]. split; [exact Hd|]. intros t. rewrite Hin. split; [intros [? ?]; split; [lia|assumption]|].
      intros [H1 H2]. split; [|exact H2]. destruct (Nat.eq_dec t n); [congruence|lia].
  Qed.
End Sorted.

Lemma insert_by_ext prio prio' t : prio' t = prio t -> forall l, (forall u, In u l -> prio' u = prio u) ->
  insert_by prio' t l = insert_by prio t l.
Proof.
  intros Ht. induction l as [|u tl IH]; intros Hl; [reflexivity|]. cbn [insert_by].
  rewrite Ht, (Hl u) by now left. rewrite IH by (intros; apply Hl; now right). reflexivity.
Qed.

Lemma sorted_by_ext prio prio' leaf leaf' : forall n, (forall t, t < n -> prio' t = prio t /\ leaf' t = leaf t) ->
  sorted_by prio' leaf' n = sorted_by prio leaf n.
Proof.
  induction n as [|n IH]; intros H; [reflexivity|]. rewrite !sorted_by_S, IH by (intros; apply H; lia).
  destruct (H n ltac:(lia)) as [Hp ->]. destruct (leaf n); [|reflexivity].
  apply insert_by_ext; [exact Hp|]. intros u Hu. apply (sorted_by_spec prio leaf n) in Hu. apply H. lia.
Qed.

Lemma sorted_by_lowest prio prio' leaf leaf' n : (forall t, t < n -> prio' t = prio t /\ leaf' t = leaf t) ->
  leaf' n = true -> (forall t, t < n -> (prio' n < prio t)%Z) ->
  sorted_by prio' leaf' (S n) = sorted_by prio leaf n ++ [n].
Proof.
  intros H Hl Hp. rewrite sorted_by_S, Hl, (sorted_by_ext prio prio' leaf leaf' n H). apply insert_by_last.
  intros u Hu. apply (sorted_by_spec prio leaf n) in Hu as [Hu _]. rewrite (proj1 (H u Hu)). specialize (Hp u Hu). lia.
Qed.

Section Prepass.
  Variables (St D : Type) (place : St -> nat -> D -> St) (pin : nat -> option D).

  Definition pre_step_by (st : St) (t : nat) : St := match pin t with Some d => place st t d | None => st end.
  Definition prepass_by (n : nat) (st : St) : St := fold_left pre_step_by (seq 0 n) st.

  Lemma prepass_by_S n st : prepass_by (S n) st = pre_step_by (prepass_by n st) n.
  Proof. unfold prepass_by. now rewrite seq_S, fold_left_app. Qed.

  Lemma prepass_by_inv (I : St -> Prop) : (forall st t d, pin t = Some d -> I st -> I (place st t d)) ->
    forall n st, I st -> I (prepass_by n st).
  Proof.
    intros Hp n st Hi. induction n as [|n IH]; [exact Hi|]. rewrite prepass_by_S. unfold pre_step_by.
    destruct (pin n) eqn:E; [now apply (Hp _ _ _ E)|exact IH].
  Qed.
End Prepass.
Arguments pre_step_by {St D} place pin st t.
Arguments prepass_by {St D} place pin n st.

Lemma prepass_by_ext {St D} (place : St -> nat -> D -> St) pin pin' st : forall n, (forall t, t < n -> pin' t = pin t) ->
  prepass_by place pin' n st = prepass_by place pin n st.
Proof.
  induction n as [|n IH]; intros H; [reflexivity|]. rewrite !prepass_by_S, IH by (intros; apply H; lia).
  unfold pre_step_by. now rewrite H by lia.
Qed.

Section Span.
  Variables (A : Type) (mn mx : A -> A -> A).

  Fixpoint span_by (get : nat -> option (A * A)) (ls : list nat) : option (A * A) :=
    match ls with
    | [] => None
    | [t] => get t
    | t :: tl =>
        match get t, span_by get tl with
        | Some (s, e), Some (s', e') => Some (mn s s', mx e e')
        | _, _ => None
        end
    end.

  Lemma span_by_cons get t u tl :
    span_by get (t :: u :: tl) =
    match get t, span_by get (u :: tl) with Some (s, e), Some (s', e') => Some (mn s s', mx e e') | _, _ => None end.
  Proof. reflexivity. Qed.

  Lemma span_by_ext get get' : forall ls, (forall t, In t ls -> get' t = get t) -> span_by get' ls = span_by get ls.
  Proof.
    induction ls as [|t tl IH]; intros H; [reflexivity|]. destruct tl as [|u tl]; [apply H; now left|].
    rewrite !span_by_cons, IH by (intros; apply H; now right). now rewrite (H t) by now left.
  Qed.

  Lemma span_by_all get : forall ls d, span_by get ls = Some d -> forall t, In t ls -> exists d', get t = Some d'.
  Proof.
    induction ls as [|t tl IH]; intros d H; [discriminate|]. destruct tl as [|u tl]; [intros t' [<-|[]]; eauto|].
    rewrite span_by_cons in H. destruct (get t) as [[s e]|] eqn:E; [|discriminate].
    destruct (span_by get (u :: tl)) as [d'|] eqn:E'; [|discriminate]. intros t' [<-|Ht']; [eauto|now apply (IH d')].
  Qed.

  Lemma span_by_mono get get' ls d : (forall t d, In t ls -> get t = Some d -> get' t = Some d) ->
    span_by get ls = Some d -> span_by get' ls = Some d.
  Proof.
    intros H Hs. rewrite <- Hs. apply span_by_ext. intros t Ht. destruct (span_by_all _ _ _ Hs t Ht) as [d' Hd'].
    rewrite Hd'. now apply H.
  Qed.

  Variable le : A -> A -> Prop.
  Hypothesis le_refl : forall a, le a a.
  Hypothesis le_trans : forall a b c, le a b -> le b c -> le a c.
  Hypothesis mn_l : forall a b, le (mn a b) a.
  Hypothesis mn_r : forall a b, le (mn a b) b.
  Hypothesis mn_dec : forall a b, {mn a b = a} + {mn a b = b}.
  Hypothesis mx_l : forall a b, le a (mx a b).
  Hypothesis mx_r : forall a b, le b (mx a b).
  Hypothesis mx_dec : forall a b, {mx a b = a} + {mx a b = b}.

  (* a running maximum, over those elements that have a value, is above its start and above every value *)
  Lemma fold_max_ge {B} (f : B -> option A) : forall l acc,
    le acc (fold_left (fun a d => match f d with Some x => mx a x | None => a end) l acc) /\
    forall d x, In d l -> f d = Some x ->
      le x (fold_left (fun a d => match f d with Some x => mx a x | None => a end) l acc).
  Proof.
    induction l as [|d tl IH]; intros acc; cbn [fold_left]; [split; [apply le_refl|intros ? ? []]|].
    destruct (IH (match f d with Some x => mx acc x | None => acc end)) as [H1 H2]. split.
    - revert H1. destruct (f d) as [y|]; intros H1; [apply (le_trans _ (mx acc y)); [apply mx_l|exact H1]|exact H1].
    - intros d' x [<-|Hin] Hf; [|now apply (H2 d' x)]. rewrite Hf in H1 |- *.
      apply (le_trans _ (mx acc x)); [apply mx_r|exact H1].
  Qed.

  Lemma span_by_dates get : forall ls, ls <> [] ->
    (forall s e, span_by get ls = Some (s, e) ->
       (forall t, In t ls -> exists d, get t = Some d) /\
       (forall t s' e', In t ls -> get t = Some (s', e') -> le s s' /\ le e' e) /\
       (exists t s' e', In t ls /\ get t = Some (s', e') /\ s' = s) /\
       (exists t s' e', In t ls /\ get t = Some (s', e') /\ e' = e)) /\
    (span_by get ls = None -> exists t, In t ls /\ get t = None).
  Proof.
    induction ls as [|t tl IH]; intros Hne; [contradiction|].
    destruct tl as [|u tl].
    - cbn [span_by]. split.
      + intros s e Hd. split; [intros t' [<-|[]]; eauto|]. split.
        * intros t' s' e' [<-|[]] H. rewrite Hd in H. injection H as -> ->. split; apply le_refl.
        * split; exists t, s, e; (split; [now left|split; [exact Hd|reflexivity]]).
      + intros Hd. exists t. split; [now left|exact Hd].
    - rewrite span_by_cons. destruct (IH ltac:(discriminate)) as [IH1 IH2].
      destruct (get t) as [[s e]|] eqn:E1; [|split; [discriminate|]; intros _; exists t; split; [now left|exact E1]].
      destruct (span_by get (u :: tl)) as [[s' e']|].
      + split; [|discriminate]. intros s0 e0 [= <- <-].
        destruct (IH1 _ _ eq_refl) as (A1 & B & (t1 & s1 & e1 & C1 & C2 & C3) & (t2 & s2 & e2 & D1 & D2 & D3)).
        split; [|split; [|split]].
        * intros t' [<-|Ht']; [eauto|now apply A1].
        * intros t' s0 e0 [<-|Ht'] H.
          -- rewrite E1 in H. injection H as <- <-. split; [apply mn_l|apply mx_l].
          -- destruct (B _ _ _ Ht' H) as [Bs Be].
             split; [apply (le_trans _ s'); [apply mn_r|exact Bs]|apply (le_trans _ e'); [exact Be|apply mx_r]].
        * destruct (mn_dec s s') as [->| ->]; [exists t, s, e|exists t1, s1, e1]; auto using in_eq, in_cons.
        * destruct (mx_dec e e') as [->| ->]; [exists t, s, e|exists t2, s2, e2]; auto using in_eq, in_cons.
      + split; [discriminate|]. intros _. destruct (IH2 eq_refl) as (t' & Ht' & Hn). exists t'. split; [now right|exact Hn].
  Qed.
End Span.
Arguments span_by {A} mn mx get ls.

Section Run.
  Variables (St D : Type) (ready : St -> nat -> bool) (step : St -> nat -> St) (place : St -> nat -> D -> St)
            (pin : nat -> option D) (prio : nat -> Z) (leaf : nat -> bool) (n : nat) (init : St).
  (* the dates of a task in a state *)
  Variable get : St -> nat -> option D.

  Definition run_by : St :=
    let st0 := prepass_by place pin n init in
    let work := filter (fun t => match get st0 t with Some _ => false | None => true end) (sorted_by prio leaf n) in
    loop_by ready step (length work) work st0.

  (* A property Phi of a placed task holds of every placed task of the final state if it holds of the milestones of the
     pre-pass, is established when a task is scheduled (ready, not yet placed, fresh: nothing of it in the ledger) and is
     not disturbed when another task is scheduled.  I: what is needed of the states on the way. *)
  Variables (fresh : St -> nat -> Prop) (I : St -> Prop) (Phi : St -> nat -> D -> Prop).
  Hypothesis get_init : forall t, get init t = None.
  Hypothesis get_place : forall st t d u, get (place st t d) u = if Nat.eqb u t then Some d else get st u.
  Hypothesis fresh_init : forall t, fresh init t.
  Hypothesis fresh_place : forall st t d u, fresh st u -> fresh (place st t d) u.
  Hypothesis I_pre : I (prepass_by place pin n init).
  Hypothesis I_step : forall st t, I st -> I (step st t).
  Hypothesis step_frame : forall st t u, u <> t -> get (step st t) u = get st u /\ (fresh st u -> fresh (step st t) u).
  Hypothesis Phi_pre : forall st t d, pin t = Some d -> Phi st t d.
  Hypothesis Phi_new : forall st t d, I st -> ready st t = true -> get st t = None -> fresh st t ->
    get (step st t) t = Some d -> Phi (step st t) t d.
  Hypothesis Phi_stable : forall st t u d, I st -> get st t = None -> u <> t -> Phi st u d -> Phi (step st t) u d.

  (* what the loop keeps: the tasks still to serve are distinct, without dates and fresh; the placed ones have Phi *)
  Definition Served (st : St) (work : list nat) : Prop :=
    I st /\ NoDup work /\ (forall u, In u work -> get st u = None /\ fresh st u) /\
    forall u du, get st u = Some du -> Phi st u du.

  Theorem run_by_placed t d : get run_by t = Some d -> Phi run_by t d.
  Proof.
    unfold run_by. set (st0 := prepass_by place pin n init). set (work := filter _ _).
    destruct (loop_by_inv _ ready step Served) with (length work) work st0 as (rest & _ & _ & _ & H); [| |now apply H].
    - intros st pre u post (Hi & Hnd & Hw & Hg) Hr. destruct (NoDup_mid _ _ _ Hnd) as (N1 & N2 & N3).
      destruct (Hw u (in_elt u pre post)) as [Hn Hf]. split; [now apply I_step|]. split; [exact N1|]. split.
      + intros v Hv. assert (Hne : v <> u) by (intros ->; contradiction).
        destruct (step_frame st u v Hne) as [E F], (Hw v (N3 v Hv)) as [A B]. rewrite E. auto.
      + intros v dv Hv. destruct (Nat.eq_dec v u) as [->|Hne]; [now apply Phi_new|].
        apply Phi_stable; auto. apply Hg. now rewrite <- (proj1 (step_frame st u v Hne)).
    - split; [exact I_pre|]. split; [apply NoDup_filter, sorted_by_spec|]. split.
      + intros u Hu. apply filter_In in Hu as [_ Hu]. split; [now destruct (get st0 u)|].
        apply prepass_by_inv; [intros; now apply fresh_place|apply fresh_init].
      + apply (prepass_by_inv _ _ place pin (fun st => forall u du, get st u = Some du -> Phi st0 u du));
          [|intros u du; now rewrite get_init].
        intros st v dv Hp IH u du. rewrite get_place. destruct (Nat.eqb_spec u v) as [->|_]; [|apply IH].
        intros [= <-]. now apply Phi_pre.
  Qed.
End Run.
Arguments run_by {St D} ready step place pin prio leaf n init get.
Arguments run_by_placed {St D ready step place pin prio leaf n init get} fresh I Phi.
