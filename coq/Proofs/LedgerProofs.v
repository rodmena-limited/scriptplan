(* One cell of the usage ledger (Model/Ledger.v), for any slot length: the three operations keep the invariant of the
   cell (C01), its entries can be laid out inside the slot, and what each operation does to the entries and the used
   seconds - including the conditional offset and the test that the second-granularity walks make around a booking. *)
From Coq Require Import QArith Qminmax List Lqa Lia.
Require Import SP.Model.Ledger.
Import ListNotations.
Open Scope Q_scope.

Lemma total_app l1 l2 : total (l1 ++ l2) == total l1 + total l2.
Proof. induction l1 as [|[t x] tl IH]; cbn; [lra|rewrite IH; lra]. Qed.

Lemma total_nonneg l : Forall (fun e : nat * Q => 0 <= snd e) l -> 0 <= total l.
Proof. induction 1 as [|[t x] tl Hx _ IH]; cbn in *; lra. Qed.

Lemma total_pos l : Forall (fun e : nat * Q => 0 < snd e) l -> l <> [] -> 0 < total l.
Proof.
  intros H Hne. destruct l as [|[t x] tl]; [contradiction|]. inversion H as [|? ? Hx Htl]; subst. cbn in *.
  assert (0 <= total tl) by (apply total_nonneg; eapply Forall_impl; [|exact Htl]; cbn; intros; lra). lra.
Qed.

(* release_last shortens the last entry of t (post is what follows it) to what is needed, at most what it held *)
Lemma release_last_char t need : forall l l' b k, release_last t need l = Some (l', b, k) ->
  exists pre post, l = pre ++ (t, b) :: post /\ l' = pre ++ (t, Qmin need b) :: post /\ k = Qmin need b.
Proof.
  induction l as [|[t' x] tl IH]; intros l' b k H; cbn in H; [discriminate|].
  destruct (release_last t need tl) as [[[tl' bk] kp]|].
  - injection H as <- <- <-. destruct (IH _ _ _ eq_refl) as (pre & post & -> & -> & ->). now exists ((t', x) :: pre), post.
  - destruct (Nat.eqb_spec t t') as [->|]; [|discriminate]. injection H as <- <- <-. now exists [], tl.
Qed.

Lemma release_last_spec t need l l' booked kept :
  0 <= need -> Forall (fun e => 0 <= snd e) l ->
  release_last t need l = Some (l', booked, kept) ->
  total l' == total l - booked + kept /\ 0 <= kept /\ kept <= booked /\ kept <= need /\
  Forall (fun e => 0 <= snd e) l' /\ booked <= total l.
Proof.
  intros Hneed Hall H. apply release_last_char in H as (pre & post & -> & -> & ->).
  apply Forall_app in Hall as [Hpre Hpost]. inversion Hpost as [|? ? Hb Hpost']; subst. cbn [snd] in Hb.
  pose proof (Q.le_min_l need booked). pose proof (Q.le_min_r need booked). assert (0 <= Qmin need booked) by now apply Q.min_glb.
  pose proof (total_nonneg _ Hpre). pose proof (total_nonneg _ Hpost').
  pose proof (total_app pre ((t, booked) :: post)) as T1. pose proof (total_app pre ((t, Qmin need booked) :: post)) as T2. cbn [total] in T1, T2.
  repeat split; try lra. apply Forall_app. split; [exact Hpre|]. now constructor.
Qed.

Lemma offset_used G c off : used (step G c (Offset off)) == Qmax (used c) off.
Proof. cbn [step]. destruct (Qlt_le_dec (used c) off); cbn [used]; [rewrite Q.max_r|rewrite Q.max_l]; lra. Qed.

Lemma offset_spec G c off :
  entries (step G c (Offset off)) = entries c /\ used c <= used (step G c (Offset off)) /\ off <= used (step G c (Offset off)).
Proof.
  split; [cbn [step]; now destruct (Qlt_le_dec (used c) off)|]. rewrite offset_used. split; [apply Q.le_max_l|apply Q.le_max_r].
Qed.

(* the offset of the bound is written only in the first slot that a task books *)
Definition offset_if (G : Q) (first : bool) (off : Q) (c : cell) : cell := if first then step G c (Offset off) else c.

Lemma offset_if_entries G first off c : entries (offset_if G first off c) = entries c.
Proof. unfold offset_if. destruct first; [apply offset_spec|reflexivity]. Qed.

Lemma offset_if_used_ge G first off c :
  used c <= used (offset_if G first off c) /\ (first = true -> off <= used (offset_if G first off c)).
Proof. unfold offset_if. destruct first; [split; [|intros _]; apply offset_spec|split; [lra|discriminate]]. Qed.

Lemma offset_if_used G first off c : 0 <= used c -> used (offset_if G first off c) == Qmax (used c) (if first then off else 0).
Proof. intros U1. unfold offset_if. destruct first; [apply offset_used|]. now rewrite Q.max_l. Qed.

(* ResourceScenario.available refuses a cell that carries entries but no used second; this is the test in step *)
Definition refuses (c : cell) : bool := match entries c with [] => false | _ => if Qlt_le_dec 0 (used c) then false else true end.

Lemma book_spec G t c cap :
  let c' := step G c (Book t cap) in
  let x := match cap with Some m => Qmin (avail G c) m | None => avail G c end in
  (c' = c /\ (refuses c = true \/ G - used c <= 0)) \/
  (entries c' = entries c ++ [(t, x)] /\ used c' = used c + x /\ avail G c == G - used c /\ 0 < avail G c).
Proof.
  cbn [step]. fold (refuses c). destruct (refuses c); [now left; auto|].
  unfold avail. destruct (Q.max_spec 0 (G - used c)) as [[H1 H2]|[H1 H2]].
  - destruct (Qlt_le_dec 0 (Qmax 0 (G - used c))) as [L|L]; [right|lra]. cbn [entries used]. repeat split; assumption.
  - destruct (Qlt_le_dec 0 (Qmax 0 (G - used c))) as [L|L]; [lra|left]. auto.
Qed.

(* with positive entries a non-empty cell has used > 0: the first reason for a refusal in book_spec never applies *)
Lemma not_refused G c : Inv G c -> Forall (fun e => 0 < snd e) (entries c) -> refuses c = false.
Proof.
  intros (_ & _ & U3 & _) Hp. unfold refuses. destruct (entries c) as [|e0 l0] eqn:E; [reflexivity|].
  destruct (Qlt_le_dec 0 (used c)) as [L|L]; [reflexivity|exfalso].
  assert (0 < total (e0 :: l0)) by (apply total_pos; [exact Hp|discriminate]). lra.
Qed.

Lemma step_inv G c o : op_ok G o -> Inv G c -> Inv G (step G c o).
Proof.
  intros Hok (H1 & H2 & H3 & H4). destruct o as [off|t cap|t need].
  - destruct (offset_spec G c off) as (E & U1 & _). pose proof (offset_used G c off) as U2. destruct Hok as [Ho1 Ho2].
    unfold Inv. rewrite E, U2. repeat split; try assumption; [lra|apply Q.max_lub; assumption|lra].
  - destruct (book_spec G t c cap) as [[-> _]|(E & U & Hav & Hpos)]; [repeat split; assumption|].
    set (x := match cap with Some m => Qmin (avail G c) m | None => avail G c end) in *.
    assert (Hx : 0 <= x /\ x <= G - used c).
    { unfold x. destruct cap as [m|]; [|lra]. cbn in Hok. split; [apply Q.min_glb; lra|].
      rewrite <- Hav. apply Q.le_min_l. }
    unfold Inv. rewrite E, U, total_app. cbn [total]. repeat split; try lra.
    apply Forall_app. split; [assumption|]. constructor; [cbn; lra|constructor].
  - cbn [step]. cbn in Hok. destruct (release_last t need (entries c)) as [[[l' booked] kept]|] eqn:E; [|repeat split; assumption].
    destruct (release_last_spec _ _ _ _ _ _ Hok H4 E) as (R1 & R2 & R3 & R4 & R5 & R6).
    unfold Inv; cbn. repeat split; try lra. assumption.
Qed.

Lemma offset_if_inv G first off c : 0 <= off /\ off <= G -> Inv G c -> Inv G (offset_if G first off c).
Proof. intros Ho Hc. unfold offset_if. destruct first; [now apply step_inv|exact Hc]. Qed.

Lemma empty_inv G : 0 < G -> Inv G empty.
Proof. intros; unfold Inv, empty; cbn. repeat split; try lra. constructor. Qed.

Theorem run_inv G ops : 0 < G -> Forall (op_ok G) ops -> Inv G (run G ops).
Proof.
  intros HG. unfold run. generalize (empty_inv G HG). generalize empty as c.
  induction ops as [|o ops IH]; intros c Hc Hall; cbn [fold_left]; [exact Hc|].
  inversion Hall; subst. apply IH; [apply step_inv; assumption|assumption].
Qed.

(* The test that both walks (swalk, book_members) make before they keep a booking: no more than tol left, or the list of
   entries did not grow. *)
Lemma book_test_true G tol t c cap : 0 <= tol ->
  refuses c = false ->
  Qle_bool (G - used c) tol || Nat.eqb (length (entries (step G c (Book t cap)))) (length (entries c)) = true ->
  G - used c <= tol.
Proof.
  intros Ht Hr H. apply orb_true_iff in H as [H|H]; [now apply Qle_bool_iff|]. apply Nat.eqb_eq in H.
  destruct (book_spec G t c cap) as [[_ [R|F]]|(E & _)]; [congruence|lra|]. rewrite E, app_length in H. cbn [length] in H. lia.
Qed.

Lemma book_test_false G t c cap : (forall m, cap = Some m -> 0 < m) ->
  Nat.eqb (length (entries (step G c (Book t cap)))) (length (entries c)) = false ->
  let x := match cap with Some m => Qmin (avail G c) m | None => avail G c end in
  0 < x /\ avail G c == G - used c /\
  entries (step G c (Book t cap)) = entries c ++ [(t, x)] /\ used (step G c (Book t cap)) = used c + x.
Proof.
  intros Hcap Hl x. apply Nat.eqb_neq in Hl.
  destruct (book_spec G t c cap) as [[E _]|(E & Hu & Hav & Hpos)]; [now rewrite E in Hl|].
  repeat split; try assumption. unfold x. destruct cap as [m|]; [apply Q.min_glb_lt; [exact Hpos|now apply Hcap]|exact Hpos].
Qed.

Lemma release_last_snoc t need : forall l a,
  release_last t need (l ++ [(t, a)]) = Some (l ++ [(t, Qmin need a)], a, Qmin need a).
Proof.
  induction l as [|[t' b] tl IH]; intros a; cbn.
  - now rewrite Nat.eqb_refl.
  - now rewrite IH.
Qed.

Lemma finish_spec G t c l a need : entries c = l ++ [(t, a)] ->
  entries (step G c (Finish t need)) = l ++ [(t, Qmin need a)] /\ used (step G c (Finish t need)) = used c - a + Qmin need a.
Proof. intros E. cbn [step]. rewrite E, release_last_snoc. split; reflexivity. Qed.

Lemma finish_char G t need c : step G c (Finish t need) = c \/
  exists pre b post, entries c = pre ++ (t, b) :: post /\ entries (step G c (Finish t need)) = pre ++ (t, Qmin need b) :: post.
Proof.
  cbn [step]. destruct (release_last t need (entries c)) as [[[l' b] k]|] eqn:E; [right|now left].
  apply release_last_char in E as (pre & post & E & -> & _). now exists pre, b, post.
Qed.

Lemma finish_pos G t need c : 0 < need -> Forall (fun e => 0 < snd e) (entries c) ->
  Forall (fun e => 0 < snd e) (entries (step G c (Finish t need))).
Proof.
  intros Hn Hp. destruct (finish_char G t need c) as [->|(pre & b & post & E & ->)]; [exact Hp|]. rewrite E in Hp.
  apply Forall_app in Hp as [H1 H2]. inversion H2; subst. apply Forall_app. split; [exact H1|].
  constructor; [now apply Q.min_glb_lt|assumption].
Qed.

Lemma book_pos G t cap c : (forall m, cap = Some m -> 0 < m) -> Forall (fun e => 0 < snd e) (entries c) ->
  Forall (fun e => 0 < snd e) (entries (step G c (Book t cap))).
Proof.
  intros Hcap Hp. destruct (book_spec G t c cap) as [[-> _]|(E & _ & _ & Ha)]; [exact Hp|]. rewrite E.
  apply Forall_app. split; [exact Hp|]. constructor; [cbn [snd]|constructor].
  destruct cap as [m|]; [apply Q.min_glb_lt; [exact Ha|now apply Hcap]|exact Ha].
Qed.

(* What the walks of both second-granularity models keep of every cell they write; positive entries are what makes
   refuses false (not_refused).  W: the project is well-formed.  It is a guard inside the property, not a hypothesis of
   the lemmas, so that one relation (SubSlotProofs.reachable) gives the results that hold of every project (C02, C05,
   C11) and those that need a well-formed one (C01). *)
Definition cell_ok (G : Q) (W : Prop) (c : cell) : Prop := W -> Inv G c /\ Forall (fun e => 0 < snd e) (entries c).

Lemma cell_ok_empty G (W : Prop) : (W -> 0 < G) -> cell_ok G W empty.
Proof. intros HG Hw. split; [apply empty_inv, HG, Hw|constructor]. Qed.

Lemma cell_ok_offset G (W : Prop) first off c : (W -> 0 <= off /\ off <= G) -> cell_ok G W c -> cell_ok G W (offset_if G first off c).
Proof.
  intros Ho Hc Hw. destruct (Hc Hw) as [Hi Hp]. split; [apply offset_if_inv; [now apply Ho|exact Hi]|now rewrite offset_if_entries].
Qed.

Lemma cell_ok_book G (W : Prop) t cap c : (W -> forall m, cap = Some m -> 0 < m) -> cell_ok G W c -> cell_ok G W (step G c (Book t cap)).
Proof.
  intros Hcap Hc Hw. destruct (Hc Hw) as [Hi Hp]. split; [|now apply book_pos, Hp; apply Hcap].
  apply step_inv; [|exact Hi]. destruct cap as [m|]; cbn [op_ok]; [apply Qlt_le_weak, (Hcap Hw m eq_refl)|exact I].
Qed.

Lemma cell_ok_finish G (W : Prop) t need c : (W -> 0 < need) -> cell_ok G W c -> cell_ok G W (step G c (Finish t need)).
Proof.
  intros Hn Hc Hw. destruct (Hc Hw) as [Hi Hp]. split; [apply step_inv; [apply Qlt_le_weak, Hn, Hw|exact Hi]|now apply finish_pos; [apply Hn|]].
Qed.

Lemma finish_owners G t need c : map fst (entries (step G c (Finish t need))) = map fst (entries c).
Proof. destruct (finish_char G t need c) as [->|(pre & b & post & E & ->)]; [reflexivity|]. now rewrite E, !map_app. Qed.

Lemma Qle_bool_false a b : Qle_bool a b = false -> b < a.
Proof. intros H. apply Qnot_le_lt. intros L. apply Qle_bool_iff in L. congruence. Qed.

(* the seconds that the remaining effort needs, capped by the slot length *)
Lemma needed_pos e need done g : 0 < e -> done < need -> 0 < g -> 0 < Qmin ((need - done) / e) g.
Proof. intros He Hd Hg. apply Q.min_glb_lt; [apply Qlt_shift_div_l; [exact He|lra]|exact Hg]. Qed.

(* what the last booked slot keeps: as much as the remaining effort needs, within what was free *)
Lemma kept_bounds e need done a g tol : 0 <= tol -> 0 < e -> done < need -> 0 < a -> a <= g -> need - tol <= done + a * e ->
  let k := Qmin (Qmin ((need - done) / e) g) a in
  0 < k /\ k <= a /\ need - tol <= done + k * e /\ done + k * e <= need.
Proof.
  intros Ht He Hd Ha Hg Hf. set (q := (need - done) / e).
  assert (Hq : q * e == need - done) by (unfold q; field; lra).
  assert (Hq0 : 0 < q) by (apply Qlt_shift_div_l; [exact He|lra]).
  clearbody q. intros k. assert (Hk : k == Qmin q a).
  { unfold k. destruct (Q.min_spec q g) as [[_ ->]|[M ->]]; [reflexivity|]. rewrite (Q.min_r g a), Q.min_r by lra. reflexivity. }
  rewrite Hk. destruct (Q.min_spec q a) as [[M ->]|[M ->]]; repeat split; try lra.
  assert (a * e <= q * e) by (apply Qmult_le_compat_r; lra). lra.
Qed.

Lemma layout_bounds from l t a b :
  Forall (fun e => 0 <= snd e) l -> In (t, a, b) (layout from l) -> from <= a /\ a <= b /\ b <= from + total l.
Proof.
  revert from. induction l as [|[t' x] tl IH]; intros from Hall Hin; cbn in *; [destruct Hin|].
  inversion Hall as [|? ? Hx Htl]; subst. cbn in Hx.
  pose proof (total_nonneg tl Htl). destruct Hin as [Heq|Hin].
  - injection Heq as <- <- <-. lra.
  - destruct (IH _ Htl Hin) as (A & B & C). lra.
Qed.

Lemma layout_disjoint from l :
  Forall (fun e => 0 <= snd e) l ->
  forall i j t1 a1 b1 t2 a2 b2, (i < j)%nat ->
    nth_error (layout from l) i = Some (t1, a1, b1) -> nth_error (layout from l) j = Some (t2, a2, b2) -> b1 <= a2.
Proof.
  revert from. induction l as [|[t x] tl IH]; intros from Hall i j t1 a1 b1 t2 a2 b2 Hij Hi Hj.
  - destruct i; discriminate.
  - inversion Hall as [|? ? Hx Htl]; subst. cbn in Hx. cbn [layout] in *. destruct j as [|j]; [lia|].
    destruct i as [|i]; cbn in Hi, Hj.
    + injection Hi as <- <- <-. apply nth_error_In in Hj.
      destruct (layout_bounds _ _ _ _ _ Htl Hj) as (A & _). lra.
    + eapply IH; [exact Htl| |exact Hi|exact Hj]. lia.
Qed.

Theorem inv_layout G c : Inv G c ->
  (forall t a b, In (t, a, b) (layout 0 (entries c)) -> 0 <= a /\ a <= b /\ b <= G) /\
  (forall i j t1 a1 b1 t2 a2 b2, (i < j)%nat ->
     nth_error (layout 0 (entries c)) i = Some (t1, a1, b1) ->
     nth_error (layout 0 (entries c)) j = Some (t2, a2, b2) -> b1 <= a2).
Proof.
  intros (H1 & H2 & H3 & H4). split.
  - intros t a b Hin. destruct (layout_bounds _ _ _ _ _ H4 Hin) as (A & B & C). lra.
  - apply layout_disjoint. exact H4.
Qed.

Lemma layout_lengths from l :
  Forall2 (fun e x => fst e = fst (fst x) /\ snd x - snd (fst x) == snd e) l (layout from l).
Proof.
  revert from. induction l as [|[t x] tl IH]; intros from; cbn; constructor; [cbn; split; [reflexivity|lra]|apply IH].
Qed.
