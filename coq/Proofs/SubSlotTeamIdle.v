(* What one slot of a team's walk does (tslot_spec), that the walk is a Walk of SubSlotIdle.v (twalk_Walk: every
   non-empty team without a repeated member), and what that gives for a placed task.  C08 (team_no_idle_bound): a slot the task
   walked past has a member that was off, full or closed by a limit - counting the tentative bookings of the members
   checked before it - and is still so in the final ledger (Grows).  C03 (team_same_instants): in every slot it booked
   every member has one entry, all of the same length. *)
From Coq Require Import QArith Qminmax List Lia Lqa.
Require Import SP.Model.Ledger SP.Proofs.LedgerProofs SP.Model.SubSlot SP.Model.SubSlotTeam SP.Proofs.SubSlotProofs
               SP.Proofs.SubSlotIdle SP.Proofs.SubSlotTeamProofs SP.Proofs.SubSlotTeamEffort.
Import ListNotations.

Section TeamIdle.
  Variable p : tproject.
  Hypothesis Hwf : twf p.
  Local Notation G := (inject_Z (tp_G p)).

  Definition ev_of (t s : nat) (rs : list nat) : list (nat * nat * nat) := map (fun r => (t, r, s)) rs.

  (* Blocked_by (ttables p) G st t r s ev by conversion, written with the model's own functions: TNoIdle is what
     Props/C08.v shows.  ev: the tentative bookings of the members before r. *)
  Definition MemberBlocked (st : sstate) (t r s : nat) (ev : list (nat * nat * nat)) : Prop :=
    sr_work (tres_of p r) s = false \/
    G - used (cells st r s) <= tol_avail \/
    exists l, In l (tlimits_of p t r) /\
              (sl_value (tlim_of p l) <= tusage p (ev ++ sbooked st) l (sl_period (tlim_of p l) s))%nat.

  Definition TReason (st : sstate) (t : nat) (team : list nat) (s : nat) : Prop :=
    exists pre r post, team = pre ++ r :: post /\ MemberBlocked st t r s (ev_of t s (rev pre)).

  Lemma TReason_mono st st' t team s : Grows st st' -> TReason st t team s -> TReason st' t team s.
  Proof.
    intros Hg (pre & r & post & E & H). exists pre, r, post. split; [exact E|]. exact (Blocked_mono (ttables p) G _ _ _ _ _ _ Hg H).
  Qed.

  (* pre: the members the gate has passed already; their tentative events lie in front, newest first (rev) *)
  Lemma gate_false_reason st t slot : CellsOk G st -> forall team pre,
    team_gate p st t slot (ev_of t slot (rev pre) ++ sbooked st) team = false ->
    exists pre' r post, team = pre' ++ r :: post /\ MemberBlocked st t r slot (ev_of t slot (rev (pre ++ pre'))).
  Proof.
    intros Hc. induction team as [|r tl IH]; intros pre H; cbn [team_gate] in H; [discriminate|].
    apply andb_false_iff in H as [H|H]; [apply andb_false_iff in H as [H|H]|].
    - exists [], r, tl. split; [reflexivity|]. rewrite app_nil_r. unfold member_available in H. cbn zeta in H.
      apply andb_false_iff in H as [H|H]; [apply andb_false_iff in H as [H|H]|].
      + now left.
      + right. left. apply negb_false_iff in H. now apply Qle_bool_iff.
      + apply negb_false_iff in H. change (refuses (cells st r slot) = true) in H. rewrite (not_refused G _ (proj1 (Hc r slot)) (proj2 (Hc r slot))) in H. discriminate.
    - exists [], r, tl. split; [reflexivity|]. rewrite app_nil_r. right. right. exact (limits_full H).
    - specialize (IH (pre ++ [r])). unfold ev_of in IH at 1. rewrite rev_app_distr in IH. cbn [rev app map] in IH.
      destruct (IH H) as (pre' & r' & post & E & B). exists (r :: pre'), r', post. split; [now rewrite E|].
      now rewrite <- app_assoc in B.
  Qed.

  Local Opaque step.
  (* One slot of the walk.  Either nothing is booked: no list of entries changes (only offsets are written) and some
     member is blocked.  Or every member is booked for the same seconds. *)
  Lemma tslot_spec t team off first slot st st1 booked : NoDup team -> team <> [] -> CellsOk G st -> 0 <= off -> tol_avail < G - off ->
    tslot p t team off first slot st = (st1, booked) ->
    booked = [] /\ Passed (fun st s => TReason st t team s) slot st st1 \/
    exists m, Gained team booked m /\ SlotBooked p st st1 t team slot m.
  Proof.
    intros Hnd Hne Hc Ho1 Ho2 H. unfold tslot in H. fold (multi team) in H. destruct (multi team) eqn:Em; cbn [andb] in H.
    - destruct (team_gate p st t slot (sbooked st) team) eqn:Eg; cbn [negb] in H.
      + destruct (team_slot p Hwf (first := first) Em Hnd Hc Ho1 Ho2 Eg) as (m & Ec & HS).
        rewrite Ec in H. right. exists m. now apply HS.
      + injection H as <- <-. left. split; [reflexivity|]. constructor; [reflexivity|apply Grows_refl|].
        destruct (gate_false_reason st t slot Hc team [] Eg) as (pre' & r & post & E & B). now exists pre', r, post.
    - destruct team as [|r [|r2 tl]]; [contradiction| |discriminate]. cbn [book_members] in H.
      assert (Hone : forall st', MemberBlocked st' t r slot [] -> TReason st' t [r] slot) by (intros st' B; now exists [], r, []).
      destruct (sr_work (tres_of p r) slot) eqn:Ew.
      2:{ injection H as <- <-. left. split; [reflexivity|]. constructor; [reflexivity|apply Grows_refl|apply Hone; now left]. }
      assert (Ho : 0 <= off /\ off <= G) by (unfold tol_avail in Ho2; split; lra).
      fold (offset_if G first off (cells st r slot)) in H. set (c1 := offset_if G first off (cells st r slot)) in *.
      destruct (_ || _ || _) eqn:Eb; injection H as <- <-.
      + left. split; [reflexivity|]. constructor.
        * exact (cells_set_all (fun r' s' c' => entries c' = entries (cells st r' s')) st r slot c1 (offset_if_entries G first off _) (fun _ _ => eq_refl)).
        * split; [|now exists []].
          exact (cells_set_all (fun r' s' c' => used (cells st r' s') <= used c') st r slot c1 (proj1 (offset_if_used_ge G first off _)) (fun _ _ => Qle_refl _)).
        * apply Hone. exact (cell_passed (ttables p) G st t r slot first off Hc Ho Eb).
      + right. apply orb_false_iff in Eb as [Eb _].
        destruct (cell_booked G t first off (cells st r slot) (proj1 (Hc r slot)) Ho Eb) as (Hx & HxG & Hav & Hent & Hused & _).
        fold c1 in Hx, HxG, Hav, Hent, Hused. exists (avail G c1).
        split; [split; [reflexivity|constructor; [cbn [fst snd]; now symmetry|constructor]]|].
        constructor; [exact Hx|exact HxG| | |now exists [(t, r, slot)]].
        * intros r' [<-|[]]. split; [exact Ew|]. exists (avail G c1), (used c1). rewrite cells_note, cells_set_same.
          split; [reflexivity|]. split; [apply (offset_if_used_ge G first off)|]. split; [exact Hent|now rewrite Hused].
        * intros r' s' Hrs. rewrite cells_note. apply cells_set_other. destruct Hrs as [Hn|Hs]; [left; intros ->; apply Hn; now left|now right].
  Qed.
  Local Transparent step.

  Lemma slotbooked_grows t team slot m st st1 : SlotBooked p st st1 t team slot m -> Grows st st1.
  Proof.
    intros [Hm _ Hmem Hf Hs]. split; [|exact Hs]. intros r s.
    destruct (in_dec Nat.eq_dec r team) as [Hr|Hr]; [destruct (Nat.eq_dec s slot) as [->|Hs']|]; try (rewrite Hf by auto; lra).
    destruct (Hmem r Hr) as (_ & xr & u1 & X1 & X2 & _ & X4). rewrite X4. lra.
  Qed.

  Lemma slotbooked_finish {st st1 t team slot booked m} needed : SlotBooked p st st1 t team slot m ->
    map (fun x => fst (fst x)) booked = team -> NoDup team -> 0 < needed ->
    SlotBooked p st (release_members G t needed slot booked st1) t team slot (Qmin needed m).
  Proof.
    intros [Hm HmG Hmem Hf Hs] Hb Hndt Hn.
    assert (Hndb : NoDup (map (fun x => fst (fst x)) booked)) by (rewrite Hb; exact Hndt).
    destruct (release_members_cells p t needed slot booked st1 Hndb) as (R1 & R2 & R3).
    constructor; [now apply Q.min_glb_lt|pose proof (Q.le_min_r needed m); lra| | |].
    - intros r Hr. destruct (Hmem r Hr) as (W & xr & u1 & X1 & X2 & X3 & X4). split; [exact W|].
      assert (Hin : exists x, In x booked /\ fst (fst x) = r) by (rewrite <- Hb in Hr; apply in_map_iff in Hr as (x & E & Hx); eauto).
      destruct Hin as (x & Hx & <-). rewrite (R1 x Hx). destruct (finish_spec G t _ _ _ needed X3) as [F1 F2].
      exists (Qmin needed xr), u1. split; [now rewrite X1|]. split; [exact X2|]. split; [exact F1|]. rewrite F2, X4. ring.
    - intros r' s' Hrs. rewrite R2 by (rewrite Hb; exact Hrs). now apply Hf.
    - now rewrite R3.
  Qed.

  Local Notation TWalk t team need off :=
    (Walk (tp_G p) (team_eff p team) need off (fun st s => TReason st t team s) (fun s x st st1 => SlotBooked p st st1 t team s x)).

  Local Opaque step release_members book_members.
  Lemma twalk_Walk t team off : NoDup team -> team <> [] -> 0 <= off -> tol_avail < G - off ->
    forall need fuel slot done start st st' d,
      (slot + fuel <= S (tp_upper p))%nat -> done < need -> (start = None -> done == 0) -> reachable (ttables p) (tok p) st ->
      twalk p t team (team_eff p team) need off fuel slot done start st = (st', d) ->
      exists bs, TWalk t team need off fuel slot done start st bs st' d.
  Proof.
    intros Hndt Hne Ho1 Ho2 need. pose proof (team_eff_pos p team Hwf Hne) as He. set (e := team_eff p team) in *.
    induction fuel as [|fuel IH]; intros slot done start st st' d Hfu Hd2 Hs0 Hrch H.
    { cbn [twalk] in H. injection H as <- <-. eexists. constructor. }
    assert (Hfn : (S slot + fuel <= S (tp_upper p))%nat) by lia. rewrite twalk_S in H.
    destruct (tslot p t team off (Qeq_bool done 0) slot st) as [st1 booked] eqn:Es.
    pose proof (reachable_cells (tG_pos p) Hwf Hrch) as Hc.
    assert (Hw1 : writes (ttables p) (tok p) t st st1) by (apply (tslot_writes p t team off (Qeq_bool done 0) slot st st st1 booked); [lia|intros _; now split|constructor|exact Es]).
    pose proof (reachable_writes Hw1 Hrch) as Hr1.
    destruct (tslot_spec t team off _ slot st st1 booked Hndt Hne Hc Ho1 Ho2 Es) as [[-> Hpass]|(m & HG & HS)].
    - (* nothing booked in this slot *)
      destruct (IH (S slot) done start st1 st' d Hfn Hd2 Hs0 Hr1 H) as [bs W]. exists bs. exact (W_pass Hpass W).
    - (* every member booked *)
      pose proof (gained_eq p team booked m (Qlt_le_weak _ _ (sb_pos HS)) HG) as Hgain. fold e in Hgain. destruct HG as [Hbt _].
      destruct booked as [|x0 bk]; [exfalso; apply Hne; now rewrite <- Hbt|]. cbn zeta in H.
      set (gained := qmax_list (map (fun x => snd (fst x) * sr_eff (tres_of p (fst (fst x)))) (x0 :: bk))) in *.
      destruct (Qle_bool (need - tol_done) (done + gained)) eqn:Ef.
      + (* the team finishes in this slot: the release leaves every member Qmin needed m seconds *)
        apply Qle_bool_iff in Ef. injection H as <- <-.
        set (needed := Qmin ((need - done) / e) G) in *. set (ub := qmax_list (snd x0 :: map snd bk)).
        pose proof (needed_pos e need done G He Hd2 (tG_pos p Hwf)) as Hn0. fold needed in Hn0.
        assert (Ef' : need - tol_done <= done + m * e) by lra.
        destruct (kept_bounds e need done m G tol_done tol_done_nonneg He Hd2 (sb_pos HS) (sb_le HS) Ef') as (_ & _ & K3 & K4).
        fold needed in K3, K4. destruct (round_end off ub needed (qmax_list_nonneg _) (Qlt_le_weak _ _ Hn0)) as [Z1 Z2].
        exists [(slot, Qmin needed m)]. apply W_fin; [exact (slotbooked_finish needed HS Hbt Hndt Hn0)|exact K3|exact K4|exact Z1|].
        intros Hn. apply Hs0, Qeq_bool_iff in Hn. rewrite Hn in Es. apply Z2.
        eapply Qle_trans; [exact (tslot_first p Es x0 (or_introl eq_refl))|apply qmax_list_in; now left].
      + (* the team goes on with the next slot *)
        pose proof (Qle_bool_false _ _ Ef) as Hf.
        assert (Hg0 : 0 < gained) by (rewrite Hgain; apply Qmult_lt_0_compat; [exact (sb_pos HS)|exact He]).
        destruct (IH (S slot) (done + gained) (Some (start_at (tp_G p) off start slot)) st1 st' d) as [bs W];
          [exact Hfn|pose proof tol_done_pos; lra|discriminate|exact Hr1|exact H|].
        exists ((slot, m) :: bs). eapply W_book; [exact HS| |exact W]. now rewrite Hgain.
  Qed.
  Local Transparent step release_members book_members.

  (* the hypothesis booked_entries of the section Walk of SubSlotIdle.v (booked_grows: slotbooked_grows, why_mono:
     TReason_mono) *)
  Lemma slotbooked_entries t team slot m st st1 : SlotBooked p st st1 t team slot m ->
    forall r s, (~ In r team \/ s <> slot) -> entries (cells st1 r s) = entries (cells st r s).
  Proof. intros HS r s Hrs. now rewrite (sb_other HS). Qed.

  (* for a task without entries before the walk: the third and fourth clause of TBooked *)
  Lemma TWalk_cells {t team need off fuel slot done start st bs st' d} : TWalk t team need off fuel slot done start st bs st' d ->
    (forall r s, tent t (cells st r s) = []) ->
    (forall s x, In (s, x) bs -> 0 < x /\ x <= G /\
       forall r, In r team -> sr_work (tres_of p r) s = true /\ exists xr, xr == x /\ tent t (cells st' r s) = [(t, xr)]) /\
    (forall r' s', (~ In r' team \/ ~ In s' (map fst bs)) -> tent t (cells st' r' s') = []).
  Proof.
    intros W Hfresh. split.
    - intros s x Hin. destruct (Walk_booked (fun r => In r team) (slotbooked_entries t team) W s x Hin) as (sta & stb & B & E1 & E2).
      split; [exact (sb_pos B)|]. split; [exact (sb_le B)|]. intros r Hr.
      destruct (sb_member B r Hr) as (Hw & xr & _ & Hx & _ & E & _). split; [exact Hw|]. exists xr. split; [exact Hx|].
      rewrite (tent_app t (cells st r s) _ xr), Hfresh by now rewrite E2, <- E1. reflexivity.
    - intros r' s' Hrs. unfold tent. rewrite (Walk_unbooked (fun r => In r team) (slotbooked_entries t team) W s' Hrs). apply Hfresh.
  Qed.

  Definition TNoIdle (st : sstate) (t : nat) : Prop :=
    let k := ttask_of p t in let team := tt_team k in
    exists b : Z,
      (0 <= b)%Z /\
      (forall s, tt_pin k = Some s -> b = s) /\
      (tt_pin k = None ->
         (tt_lb k <= b)%Z /\
         forall d, In d (tt_deps k) ->
           exists s' e', tdates p st (sd_task d) = Some (s', e') /\ ((if sd_onstart d then s' else e') + sd_gap d <= b)%Z) /\
      forall s s2, (Z.to_nat (b / tp_G p) <= s)%nat -> (s < s2)%nat ->
        (exists r, In r team /\ tent t (cells st r s2) <> []) ->
        (forall r, In r team -> tent t (cells st r s) = []) -> TReason st t team s.

  (* the last clause of TNoIdle, for a given b *)
  Definition TIdleFrom (st : sstate) (t : nat) (b : Z) : Prop :=
    let team := tt_team (ttask_of p t) in
    forall s s2, (Z.to_nat (b / tp_G p) <= s)%nat -> (s < s2)%nat ->
      (exists r, In r team /\ tent t (cells st r s2) <> []) ->
      (forall r, In r team -> tent t (cells st r s) = []) -> TReason st t team s.

  (* the second and third clause of TNoIdle are TBound st t b written out *)
  Lemma TNoIdle_from st t b : (0 <= b)%Z -> TBound p st t b -> TIdleFrom st t b -> TNoIdle st t.
  Proof. intros H0 [H1 H2] H3. exists b. split; [exact H0|]. split; [exact H1|]. split; [exact H2|exact H3]. Qed.

  Lemma TIdleFrom_stable st st' t b : Grows st st' -> (forall r s, tent t (cells st' r s) = tent t (cells st r s)) ->
    TIdleFrom st t b -> TIdleFrom st' t b.
  Proof.
    intros Hg Hc B3 s s2 Hs Hs2 (r & Hr & H1) H2. eapply TReason_mono; [exact Hg|]. apply (B3 s s2 Hs Hs2).
    - exists r. split; [exact Hr|]. now rewrite <- Hc.
    - intros r' Hr'. rewrite <- Hc. now apply H2.
  Qed.

  Lemma tschedule_task_spec st t : reachable (ttables p) (tok p) st -> NoDup (tt_team (ttask_of p t)) ->
    let k := ttask_of p t in let b := tbound p st t in let slot := Z.to_nat (b / tp_G p) in
    tschedule_task p st t = st \/
    tt_mile k = true /\ tschedule_task p st t = splace st t (b, b) \/
    tt_mile k = false /\ (0 <= b)%Z /\
    exists bs st1 d, TWalk t (tt_team k) (tt_effort k) (inject_Z (b mod tp_G p)) (S (tp_upper p) - slot) slot 0 None st bs st1 d /\
                     writes (ttables p) (tok p) t st st1 /\
                     tschedule_task p st t = match d with Some d => splace st1 t d | None => st1 end.
  Proof.
    intros Hi Hndt. cbn zeta. destruct (tschedule_task_cases p st t) as [| |st' d]; [now left|right; now left|right; right].
    destruct (off_bounds (tp_G p) (tbound p st t) (twf_G p Hwf)) as (O1 & _ & O2).
    assert (Hfu : (Z.to_nat (tbound p st t / tp_G p) + (S (tp_upper p) - Z.to_nat (tbound p st t / tp_G p)) <= S (tp_upper p))%nat) by lia.
    destruct (twalk_Walk t _ _ Hndt Hne O1 O2 _ _ _ _ _ _ _ _ Hfu (twf_work p Hwf t Em) (fun _ => Qeq_refl 0) Hi Ew) as [bs W0].
    split; [exact Em|]. split; [exact Hb|]. exists bs, st', d. split; [exact W0|]. split; [exact W|reflexivity].
  Qed.

  Lemma tschedule_task_grows st t : reachable (ttables p) (tok p) st -> NoDup (tt_team (ttask_of p t)) -> Grows st (tschedule_task p st t).
  Proof.
    intros Hi Hndt. destruct (tschedule_task_spec st t Hi Hndt) as [->|[[_ ->]|(_ & _ & bs & st1 & d & W & _ & ->)]].
    - apply Grows_refl.
    - apply Grows_place.
    - pose proof (Walk_grows (slotbooked_grows t _) W) as Hg. destruct d; [exact (Grows_trans _ _ _ Hg (Grows_place _ _ _))|exact Hg].
  Qed.

  Lemma tschedule_task_Walk st t d : reachable (ttables p) (tok p) st -> NoDup (tt_team (ttask_of p t)) ->
    tt_mile (ttask_of p t) = false -> sleaf_dates st t = None -> sleaf_dates (tschedule_task p st t) t = Some d ->
    let k := ttask_of p t in let b := tbound p st t in let slot := Z.to_nat (b / tp_G p) in
    (0 <= b)%Z /\
    exists bs st1, TWalk t (tt_team k) (tt_effort k) (inject_Z (b mod tp_G p)) (S (tp_upper p) - slot) slot 0 None st bs st1 (Some d) /\
                   tschedule_task p st t = splace st1 t d.
  Proof.
    intros Hi Hndt Em Hn H. cbn zeta.
    destruct (tschedule_task_spec st t Hi Hndt) as [E|[[Em' _]|(_ & Hb & bs & st1 & d' & W & Hw & E)]]; [congruence|congruence|].
    rewrite E in H. apply (writes_placed Hw Hn) in H as ->. split; [exact Hb|]. exists bs, st1. now split.
  Qed.

  (* To TNoIdle this adds that its b is the task's bound and is not after the start - in TNoIdle alone b may lie beyond
     the last slot booked, and then its last clause says nothing. *)
  Theorem team_no_idle_bound (Hnd : forall t, NoDup (tt_team (ttask_of p t))) t d :
    sleaf_dates (tschedule p) t = Some d -> tt_mile (ttask_of p t) = false ->
    exists b, TBound p (tschedule p) t b /\ (b <= fst d)%Z /\ (0 <= b)%Z /\ TIdleFrom (tschedule p) t b.
  Proof.
    revert t d. apply (tschedule_placed p (fun st t d => tt_mile (ttask_of p t) = false ->
      exists b, TBound p st t b /\ (b <= fst d)%Z /\ (0 <= b)%Z /\ TIdleFrom st t b)).
    - congruence.
    - intros st t [f e] Hi Hready Hn Hfresh H Em. pose proof (twf_G p Hwf) as HG.
      pose proof (TBound_stable p st _ t _ (task_step_dates_kept (tschedule_task_step p st t) Hn) (tbound_Bound p st t Hready)) as Hbd.
      destruct (tschedule_task_Walk st t _ Hi (Hnd t) Em Hn H) as (Hb & bs & st1 & W & E). rewrite E in *.
      destruct (TWalk_cells W Hfresh) as [Hbk Hun]. destruct (off_bounds (tp_G p) (tbound p st t) HG) as (_ & Hoff & _).
      destruct (Walk_dates HG Hoff W eq_refl ltac:(discriminate)) as ((s1 & Hs1 & ->) & _).
      exists (tbound p st t). split; [exact Hbd|]. split; [exact (bound_le_start _ _ s1 HG Hb (Walk_later W _ Hs1))|]. split; [exact Hb|].
      intros s s2 Hs Hs2 (r & Hr & H1) H2. cbn [splace cells] in H1, H2. apply (TReason_mono st1); [apply Grows_place|].
      apply (Walk_passed (slotbooked_grows t _) (fun st0 st2 s0 => TReason_mono st0 st2 t _ s0) W (s := s) (s2 := s2)); [lia| |].
      + destruct (in_dec Nat.eq_dec s2 (map fst bs)) as [Hin|Hin]; [exact Hin|]. exfalso. apply H1, Hun. now right.
      + intros Hin. apply in_map_iff in Hin as ([s' x] & <- & Hin). destruct (tt_team (ttask_of p t)) as [|r0 tl] eqn:Et; [destruct Hr|].
        destruct (Hbk s' x Hin) as (_ & _ & A3). destruct (A3 r0 (or_introl eq_refl)) as (_ & xr & _ & E').
        specialize (H2 r0 (or_introl eq_refl)). cbn [fst] in H2. rewrite E' in H2. discriminate.
    - intros st t u d Hi Hn Hne HK Em. destruct (HK Em) as (b & B1 & B2 & B3 & B4). exists b.
      split; [exact (TBound_stable p st _ u b (task_step_dates_kept (tschedule_task_step p st t) Hn) B1)|]. split; [exact B2|]. split; [exact B3|].
      exact (TIdleFrom_stable st _ u b (tschedule_task_grows st t Hi (Hnd t)) (proj2 (task_step_frame u (tschedule_task_step p st t) Hne)) B4).
  Qed.

  Theorem team_no_idle (Hnd : forall t, NoDup (tt_team (ttask_of p t))) t f e :
    sleaf_dates (tschedule p) t = Some (f, e) -> tt_mile (ttask_of p t) = false ->
    TNoIdle (tschedule p) t.
  Proof. intros Ht Hm. destruct (team_no_idle_bound Hnd t _ Ht Hm) as (b & B1 & _ & B3 & B4). exact (TNoIdle_from _ t b B3 B1 B4). Qed.

  (* C03 (seconds, teams), Props/C03.v; here for every duplicate-free team, of one member or several *)
  Theorem team_same_instants t d : sleaf_dates (tschedule p) t = Some d -> tt_mile (ttask_of p t) = false ->
    NoDup (tt_team (ttask_of p t)) -> TBooked p (tschedule p) t.
  Proof.
    intros Ht Hm. revert t d Ht Hm. apply (tschedule_placed p (fun st t _ => tt_mile (ttask_of p t) = false ->
      NoDup (tt_team (ttask_of p t)) -> TBooked p st t)).
    - congruence.
    - intros st t d Hi _ Hn Hfresh H Em Hndt.
      destruct (tschedule_task_Walk st t d Hi Hndt Em Hn H) as (_ & bs & st1 & W & ->). destruct (TWalk_cells W Hfresh) as [Hbk Hun].
      destruct (Walk_sum W ltac:(discriminate)) as [S1 S2]. rewrite Qplus_0_l in S1, S2.
      exists bs. split; [exact (Walk_ended W ltac:(discriminate))|]. split; [exact (Walk_nodup W)|].
      split; [exact Hbk|]. split; [exact Hun|]. split; assumption.
    - intros st t u d _ _ Hne HB Em Hndu. apply (TBooked_stable p st); [|now apply HB].
      apply (task_step_frame u (tschedule_task_step p st t) Hne).
  Qed.
End TeamIdle.
