(* The three models as instances of Proofs/Generic.v: one equation per copied function, and what the pre-pass of each
   places (pin_of, zpin). *)
From Coq Require Import QArith List.
Require Import SP.Model.Sched SP.Model.SubSlot SP.Model.SubSlotTeam SP.Proofs.Generic.

Lemma pick_eq p st l : pick p st l = pick_by (ready p st) l.
Proof. induction l as [|t tl IH]; cbn; [reflexivity|now rewrite IH]. Qed.

Lemma loop_eq p : forall fuel work st, loop p fuel work st = loop_by (ready p) (schedule_task p) fuel work st.
Proof.
  induction fuel as [|fuel IH]; intros work st; cbn [loop loop_by]; [reflexivity|]. rewrite pick_eq.
  destruct (pick_by _ work) as [[t rest]|]; [apply IH|reflexivity].
Qed.

Lemma insert_eq p t l : insert p t l = insert_by (fun u => t_prio (task_of p u)) t l.
Proof. induction l as [|u tl IH]; cbn; [reflexivity|now rewrite IH]. Qed.

Lemma sorted_leaves_eq p :
  sorted_leaves p = sorted_by (fun u => t_prio (task_of p u)) (fun u => t_leaf (task_of p u)) (length (p_tasks p)).
Proof. apply fold_left_ext_in. intros acc t _. now rewrite insert_eq. Qed.

Definition pin_of (p : project) (t : nat) : option (nat * nat) :=
  let k := task_of p t in
  if t_leaf k && Nat.eqb (t_need k) 0
  then match t_pin k with Some s => if s <=? p_upper p then Some (s, s) else None | None => None end
  else None.

Lemma pin_of_some p t d : pin_of p t = Some d ->
  exists s, d = (s, s) /\ t_pin (task_of p t) = Some s /\ t_need (task_of p t) = 0%nat.
Proof.
  unfold pin_of. cbn zeta. destruct (t_leaf _); [|discriminate]. destruct (Nat.eqb_spec (t_need (task_of p t)) 0) as [E|_]; [|discriminate].
  destruct (t_pin _) as [s|]; [|discriminate]. destruct (s <=? _); [|discriminate]. intros [= <-]. now exists s.
Qed.

Lemma prepass_eq p : prepass p = prepass_by place (pin_of p) (length (p_tasks p)) init.
Proof.
  apply fold_left_ext_in. intros st t _. unfold pre_step_by, pin_of. cbn zeta.
  destruct (t_leaf _ && _); [|reflexivity]. destruct (t_pin _) as [s|]; [|reflexivity]. now destruct (s <=? _).
Qed.

Lemma span_eq st : forall ls, span st ls = span_by Nat.min Nat.max (leaf_dates st) ls.
Proof. induction ls as [|t [|u tl] IH]; [reflexivity..|]. rewrite span_by_cons, <- IH. reflexivity. Qed.

(* Generic.span_by_dates at the two orders the models use *)
Definition span_dates_nat :=
  span_by_dates nat Nat.min Nat.max le Nat.le_refl Nat.le_trans Nat.le_min_l Nat.le_min_r Nat.min_dec Nat.le_max_l Nat.le_max_r
    Nat.max_dec.
Definition fold_max_nat {B} := @fold_max_ge nat Nat.max le Nat.le_refl Nat.le_trans Nat.le_max_l Nat.le_max_r B.
Definition fold_max_Z {B} := @fold_max_ge Z Z.max Z.le Z.le_refl Z.le_trans Z.le_max_l Z.le_max_r B.
Definition span_dates_Z :=
  span_by_dates Z Z.min Z.max Z.le Z.le_refl Z.le_trans Z.le_min_l Z.le_min_r Z.min_dec Z.le_max_l Z.le_max_r Z.max_dec.

Lemma spick_eq p st l : spick p st l = pick_by (sready p st) l.
Proof. induction l as [|t tl IH]; cbn; [reflexivity|now rewrite IH]. Qed.

Lemma sloop_eq p : forall fuel work st, sloop p fuel work st = loop_by (sready p) (sschedule_task p) fuel work st.
Proof.
  induction fuel as [|fuel IH]; intros work st; cbn [sloop loop_by]; [reflexivity|]. rewrite spick_eq.
  destruct (pick_by _ work) as [[t rest]|]; [apply IH|reflexivity].
Qed.

Lemma sinsert_eq p t l : sinsert p t l = insert_by (fun u => s_prio (stask_of p u)) t l.
Proof. induction l as [|u tl IH]; cbn; [reflexivity|now rewrite IH]. Qed.

Lemma ssorted_leaves_eq p :
  ssorted_leaves p = sorted_by (fun u => s_prio (stask_of p u)) (fun u => s_leaf (stask_of p u)) (length (sp_tasks p)).
Proof. apply fold_left_ext_in. intros acc t _. now rewrite sinsert_eq. Qed.

Definition zpin (leaf mile : bool) (pin : option Z) (G : Z) (upper : nat) : option (Z * Z) :=
  if leaf && mile
  then match pin with Some s => if (0 <=? s)%Z && (s / G <=? Z.of_nat upper)%Z then Some (s, s) else None | None => None end
  else None.

Lemma zpin_some leaf mile pin G upper d : zpin leaf mile pin G upper = Some d ->
  exists s, d = (s, s) /\ pin = Some s /\ leaf = true /\ mile = true /\ (0 <= s)%Z /\ (s / G <= Z.of_nat upper)%Z.
Proof.
  unfold zpin. destruct leaf, mile, pin as [s|]; try discriminate. cbn [andb].
  destruct (Z.leb_spec 0 s), (Z.leb_spec (s / G) (Z.of_nat upper)); try discriminate. intros [= <-]. exists s. repeat split; assumption.
Qed.

Definition spin_of (p : sproject) (t : nat) : option (Z * Z) :=
  let k := stask_of p t in zpin (s_leaf k) (s_mile k) (s_pin k) (sp_G p) (sp_upper p).

Lemma sprepass_eq p : sprepass p = prepass_by splace (spin_of p) (length (sp_tasks p)) sinit.
Proof.
  apply fold_left_ext_in. intros st t _. unfold pre_step_by, spin_of, zpin. cbn zeta.
  destruct (s_leaf _ && _); [|reflexivity]. destruct (s_pin _) as [s|]; [|reflexivity]. now destruct (_ && _).
Qed.

Lemma sspan_eq st : forall ls, sspan st ls = span_by Z.min Z.max (sleaf_dates st) ls.
Proof. induction ls as [|t [|u tl] IH]; [reflexivity..|]. rewrite span_by_cons, <- IH. reflexivity. Qed.

Lemma sschedule_eq p :
  sschedule p = run_by (sready p) (sschedule_task p) splace (spin_of p) (fun u => s_prio (stask_of p u)) (fun u => s_leaf (stask_of p u))
                       (length (sp_tasks p)) sinit sleaf_dates.
Proof. unfold sschedule, run_by. now rewrite sloop_eq, !sprepass_eq, ssorted_leaves_eq. Qed.

Lemma tpick_eq p st l : tpick p st l = pick_by (tready p st) l.
Proof. induction l as [|t tl IH]; cbn; [reflexivity|now rewrite IH]. Qed.

Lemma tloop_eq p : forall fuel work st, tloop p fuel work st = loop_by (tready p) (tschedule_task p) fuel work st.
Proof.
  induction fuel as [|fuel IH]; intros work st; cbn [tloop loop_by]; [reflexivity|]. rewrite tpick_eq.
  destruct (pick_by _ work) as [[t rest]|]; [apply IH|reflexivity].
Qed.

Lemma tinsert_eq p t l : tinsert p t l = insert_by (fun u => tt_prio (ttask_of p u)) t l.
Proof. induction l as [|u tl IH]; cbn; [reflexivity|now rewrite IH]. Qed.

Lemma tsorted_leaves_eq p :
  tsorted_leaves p = sorted_by (fun u => tt_prio (ttask_of p u)) (fun u => tt_leaf (ttask_of p u)) (length (tp_tasks p)).
Proof. apply fold_left_ext_in. intros acc t _. now rewrite tinsert_eq. Qed.

Definition tpin_of (p : tproject) (t : nat) : option (Z * Z) :=
  let k := ttask_of p t in zpin (tt_leaf k) (tt_mile k) (tt_pin k) (tp_G p) (tp_upper p).

Lemma tprepass_eq p : tprepass p = prepass_by splace (tpin_of p) (length (tp_tasks p)) sinit.
Proof.
  apply fold_left_ext_in. intros st t _. unfold pre_step_by, tpin_of, zpin. cbn zeta.
  destruct (tt_leaf _ && _); [|reflexivity]. destruct (tt_pin _) as [s|]; [|reflexivity]. now destruct (_ && _).
Qed.

Lemma tschedule_eq p :
  tschedule p = run_by (tready p) (tschedule_task p) splace (tpin_of p) (fun u => tt_prio (ttask_of p u)) (fun u => tt_leaf (ttask_of p u))
                       (length (tp_tasks p)) sinit sleaf_dates.
Proof. unfold tschedule, run_by. now rewrite tloop_eq, !tprepass_eq, tsorted_leaves_eq. Qed.
