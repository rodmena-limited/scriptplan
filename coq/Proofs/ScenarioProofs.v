(* Scenario inheritance (Model/Scenario.v): a scenario has its own value or else its parent's, and an override is seen
   only at and below the scenario it is written for (C16). *)
From Coq Require Import List Arith Lia Bool.
Require Import SP.Model.Scenario.

Section P.
  Context {V : Type}.
  Variable parent : nat -> option nat.
  Hypothesis parent_lt : forall i j, parent i = Some j -> j < i.

  (* fuel beyond the scenario's number is not used: ancestors have smaller numbers *)
  Lemma eff_fuel (ov : nat -> option V) base : forall f1 f2 k, k <= f1 -> k <= f2 ->
    eff parent ov base f1 k = eff parent ov base f2 k.
  Proof.
    (* both sides take the same step, to a parent with a smaller number; with no fuel on one side k is 0, which has no
       parent *)
    induction f1 as [|f1 IH]; intros [|f2] k H1 H2; cbn [eff]; destruct (ov k); try reflexivity.
    all: destruct (parent k) as [j|] eqn:E; [apply parent_lt in E|reflexivity].
    - (* no fuel on the left *) lia.
    - (* no fuel on the right *) lia.
    - apply IH; lia.
  Qed.

  Lemma eff_same (ov : nat -> option V) base i j : ov i = None -> parent i = Some j ->
    eff parent ov base i i = eff parent ov base j j.
  Proof.
    intros Ho Hp. pose proof (parent_lt _ _ Hp). destruct i as [|i]; [lia|].
    cbn [eff]. rewrite Ho, Hp. apply eff_fuel; lia.
  Qed.

  Lemma eff_root (ov : nat -> option V) base i : ov i = None -> parent i = None -> eff parent ov base i i = base.
  Proof. intros Ho Hp. destruct i; cbn; rewrite Ho, ?Hp; reflexivity. Qed.

  Lemma eff_own (ov : nat -> option V) base i v f : ov i = Some v -> eff parent ov base f i = v.
  Proof. intros H. destruct f; cbn; now rewrite H. Qed.

  Lemma eff_local (ov : nat -> option V) base j v : forall f i,
    below parent f i j = false ->
    eff parent (fun k => if Nat.eqb k j then Some v else ov k) base f i = eff parent ov base f i.
  Proof.
    induction f as [|f IH]; intros i Hb; cbn in *.
    - apply orb_false_iff in Hb as [Hb _]. rewrite Hb. reflexivity.
    - apply orb_false_iff in Hb as [Hb1 Hb2]. rewrite Hb1. destruct (ov i); [reflexivity|].
      destruct (parent i) as [k|]; [|reflexivity]. now apply IH.
  Qed.
End P.

Lemma schedule_all_nth {P R} (sched : P -> R) vs i d : i < length vs ->
  nth i (schedule_all sched vs) (sched d) = sched (nth i vs d).
Proof. intros _. unfold schedule_all. apply map_nth. Qed.
