(* C09 at second granularity: appending a strictly lowest-priority task on which nothing depends leaves the dates of
   every other task unchanged (Model/SubSlot.v, every project). *)
From Coq Require Import QArith List Lia.
Require Import SP.Model.Ledger SP.Model.SubSlot SP.Proofs.Generic SP.Proofs.GenericInst SP.Proofs.SubSlotProofs.
Import ListNotations.

Section Prio.
  Variables (p : sproject) (x : stask).
  Let n := length (sp_tasks p).
  Definition sextend : sproject :=
    {| sp_tasks := sp_tasks p ++ [x]; sp_res := sp_res p; sp_limits := sp_limits p; sp_upper := sp_upper p; sp_G := sp_G p |}.
  Local Notation p' := sextend.

  Hypothesis Hleaf : s_leaf x = true.
  Hypothesis Hprio : forall t, (t < n)%nat -> (s_prio x < s_prio (stask_of p t))%Z.
  Hypothesis Hnodep : forall t d, (t < n)%nat -> In d (s_deps (stask_of p t)) -> sd_task d <> n.
  Hypothesis Hnocont : forall t, (t < n)%nat -> ~ In n (s_leaves (stask_of p t)).

  Local Lemma task_other t : t <> n -> stask_of p' t = stask_of p t.
  Proof.
    intros Hne. unfold stask_of, p', sextend; cbn [sp_tasks]. fold n.
    destruct (Nat.lt_ge_cases t n) as [Hlt|Hge].
    - now apply app_nth1.
    - rewrite app_nth2 by exact Hge. rewrite (nth_overflow (sp_tasks p)) by exact Hge.
      apply nth_overflow. cbn. fold n. lia.
  Qed.

  Local Lemma task_new : stask_of p' n = x.
  Proof. unfold stask_of, p', sextend; cbn [sp_tasks]. unfold n. rewrite app_nth2 by lia. now rewrite Nat.sub_diag. Qed.

  Local Lemma deps_other t d : In d (s_deps (stask_of p t)) -> sd_task d <> n.
  Proof.
    intros Hd. destruct (Nat.lt_ge_cases t n) as [Hlt|Hge]; [now apply (Hnodep t)|].
    unfold stask_of in Hd. rewrite nth_overflow in Hd by (fold n; lia). destruct Hd.
  Qed.

  Local Lemma leaves_other t : ~ In n (s_leaves (stask_of p t)).
  Proof.
    destruct (Nat.lt_ge_cases t n) as [Hlt|Hge]; [now apply Hnocont|].
    unfold stask_of. rewrite nth_overflow by (fold n; lia). intros [].
  Qed.

  Local Definition agree (st st' : sstate) : Prop := forall u, u <> n -> sleaf_dates st' u = sleaf_dates st u.

  Lemma span_agree st st' : agree st st' -> forall ls, ~ In n ls -> sspan st' ls = sspan st ls.
  Proof. intros Ha ls Hn. rewrite !sspan_eq. apply span_by_ext. intros t Ht. apply Ha. intros ->. contradiction. Qed.

  Lemma dates_agree st st' u : agree st st' -> u <> n -> sdates p' st' u = sdates p st u.
  Proof.
    intros Ha Hu. unfold sdates. rewrite (task_other u Hu).
    destruct (s_leaf (stask_of p u)); [now apply Ha|]. apply span_agree; [exact Ha|apply leaves_other].
  Qed.

  Lemma dep_time_agree st st' d : agree st st' -> sd_task d <> n -> sdep_time p' st' d = sdep_time p st d.
  Proof. intros Ha Hd. unfold sdep_time. now rewrite (dates_agree st st' _ Ha Hd). Qed.

  Lemma ready_agree st st' t : agree st st' -> t <> n -> sready p' st' t = sready p st t.
  Proof.
    intros Ha Ht. unfold sready. rewrite (task_other t Ht). apply forallb_ext_in.
    intros d Hd. now rewrite (dates_agree st st' _ Ha (deps_other t d Hd)).
  Qed.

  Lemma bound_agree st st' t : agree st st' -> t <> n -> sbound p' st' t = sbound p st t.
  Proof.
    intros Ha Ht. unfold sbound. rewrite (task_other t Ht). destruct (s_pin (stask_of p t)); [reflexivity|].
    apply fold_left_ext_in. intros acc d Hd. now rewrite (dep_time_agree st st' d Ha (deps_other t d Hd)).
  Qed.

  Local Definition clean (st : sstate) : Prop := forall b, In b (sbooked st) -> fst (fst b) <> n.

  Lemma counts_same l b : fst (fst b) <> n -> scounts p' l b = scounts p l b.
  Proof. intros Hb. destruct b as [[t r] s]. cbn in Hb. unfold scounts. now rewrite (task_other _ Hb). Qed.

  Lemma usage_same st st' l k : sbooked st' = sbooked st -> clean st -> susage p' st' l k = susage p st l k.
  Proof.
    intros Hb Hc. unfold susage. rewrite Hb. f_equal. apply filter_ext_in. intros b Hin.
    now rewrite (counts_same l b (Hc b Hin)).
  Qed.

  Lemma limits_ok_same st st' t r s : sbooked st' = sbooked st -> clean st -> t <> n ->
    forallb (fun l => slimit_ok p' st' l s) (slimits_of p' t r) = forallb (fun l => slimit_ok p st l s) (slimits_of p t r).
  Proof.
    intros Hb Hc Ht. unfold slimits_of. rewrite (task_other t Ht). apply forallb_ext_in.
    intros l _. unfold slimit_ok. now rewrite (usage_same st st' l _ Hb Hc).
  Qed.

  Local Definition rel (st st' : sstate) : Prop :=
    (forall r s, cells st' r s = cells st r s) /\ sbooked st' = sbooked st /\ clean st /\ agree st st'.

  Lemma set_cell_rel st st' r s c : rel st st' -> rel (set_cell st r s c) (set_cell st' r s c).
  Proof.
    intros (A & B & C & D). split; [|split; [exact B|split; [exact C|exact D]]].
    intros r' s'. cbn [set_cell cells]. now rewrite A.
  Qed.

  Lemma note_rel st st' t r s : rel st st' -> t <> n -> rel (note_booking st t r s) (note_booking st' t r s).
  Proof.
    intros (A & B & C & D) Ht. split; [exact A|]. split; [cbn [note_booking sbooked]; now rewrite B|]. split; [|exact D].
    intros b [<-|Hb]; [exact Ht|now apply C].
  Qed.

  Lemma walk_rel t r e need off : t <> n -> forall fuel slot done start st st', rel st st' ->
    let '(a, d) := swalk p t r e need off fuel slot done start st in
    let '(a', d') := swalk p' t r e need off fuel slot done start st' in
    d' = d /\ rel a a'.
  Proof.
    intros Ht. induction fuel as [|fuel IH]; intros slot done start st st' Hr; cbn [swalk]; [split; [reflexivity|exact Hr]|].
    change (sres_of p' r) with (sres_of p r). change (sp_G p') with (sp_G p).
    destruct (sr_work (sres_of p r) slot); [|now apply IH].
    destruct Hr as (A & B & C & D). rewrite (A r slot).
    rewrite (limits_ok_same st st' t r slot B C Ht).
    set (c1 := if Qeq_bool done 0 then step (inject_Z (sp_G p)) (cells st r slot) (Offset off) else cells st r slot).
    destruct (_ || _ || _).
    - apply IH. apply set_cell_rel. repeat split; assumption.
    - destruct (Qle_bool _ _).
      + split; [reflexivity|]. apply note_rel; [|exact Ht]. apply set_cell_rel. repeat split; assumption.
      + apply IH. apply note_rel; [|exact Ht]. apply set_cell_rel. repeat split; assumption.
  Qed.

  Lemma place_rel st st' t d : rel st st' -> rel (splace st t d) (splace st' t d).
  Proof.
    intros (A & B & C & D). split; [exact A|]. split; [exact B|]. split; [exact C|].
    intros u Hu. unfold sleaf_dates, splace; cbn. destruct (Nat.eqb u t); [reflexivity|now apply D].
  Qed.

  Lemma schedule_task_rel st st' t : rel st st' -> t <> n -> rel (sschedule_task p st t) (sschedule_task p' st' t).
  Proof.
    intros Hr Ht. unfold sschedule_task. cbn zeta.
    rewrite (bound_agree st st' t (proj2 (proj2 (proj2 Hr))) Ht), (task_other t Ht).
    change (sp_upper p') with (sp_upper p). change (sp_G p') with (sp_G p).
    destruct ((sbound p st t <? 0)%Z || _); [exact Hr|].
    destruct (s_mile (stask_of p t)); [now apply place_rel|].
    change (sres_of p' (s_res (stask_of p t))) with (sres_of p (s_res (stask_of p t))).
    pose proof (walk_rel t (s_res (stask_of p t)) (sr_eff (sres_of p (s_res (stask_of p t)))) (s_effort (stask_of p t))
                  (inject_Z (sbound p st t mod sp_G p)) Ht
                  (S (sp_upper p) - Z.to_nat (sbound p st t / sp_G p)) (Z.to_nat (sbound p st t / sp_G p)) 0 None st st' Hr) as Hw.
    destruct (swalk p t _ _ _ _ _ _ 0 None st) as [a d]. destruct (swalk p' t _ _ _ _ _ _ 0 None st') as [a' d'].
    destruct Hw as [-> Ha]. destruct d as [d|]; [now apply place_rel|exact Ha].
  Qed.
  Lemma sorted_leaves_extend : ssorted_leaves p' = ssorted_leaves p ++ [n].
  Proof.
    rewrite !ssorted_leaves_eq. cbn [sextend sp_tasks]. rewrite last_length. fold n. apply sorted_by_lowest.
    - intros t Ht. now rewrite (task_other t) by lia.
    - now rewrite task_new.
    - intros t Ht. rewrite task_new. now apply Hprio.
  Qed.

  Lemma sorted_leaves_lt u : In u (ssorted_leaves p) -> (u < n)%nat.
  Proof. rewrite ssorted_leaves_eq. intros Hu. now apply sorted_by_spec in Hu. Qed.

  Lemma prepass_rel : rel (sprepass p) (sprepass p').
  Proof.
    rewrite !sprepass_eq. cbn [sextend sp_tasks]. rewrite last_length, prepass_by_S. fold n.
    rewrite (prepass_by_ext splace (spin_of p) (spin_of p')) by (intros t Ht; unfold spin_of; now rewrite (task_other t) by lia).
    set (st := prepass_by splace (spin_of p) n sinit).
    assert (Hc : clean st) by (apply prepass_by_inv; [intros ? ? ? _ H; exact H|intros b []]).
    unfold pre_step_by. destruct (spin_of p' n); (split; [reflexivity|split; [reflexivity|split; [exact Hc|]]]); intros u Hu.
    - now apply sleaf_dates_place_other.
    - reflexivity.
  Qed.

  (* C09.  The new task is picked only when no other remaining task is ready, and placing it makes nothing ready
     (Generic.loop_by_sim); until then the two runs are in rel: equal ledgers, no booking event of the new task. *)
  Theorem subslot_lowest_priority_harmless u : u <> n -> sdates p' (sschedule p') u = sdates p (sschedule p) u.
  Proof.
    intros Hu. apply dates_agree; [|exact Hu]. unfold sschedule. cbn zeta. rewrite sorted_leaves_extend, filter_app, !sloop_eq.
    pose proof prepass_rel as Hr. pose proof (proj2 (proj2 (proj2 Hr))) as Ha.
    set (keep q := fun t => match sleaf_dates (sprepass q) t with Some _ => false | None => true end).
    fold (keep p) (keep p').
    rewrite (filter_ext_in (keep p') (keep p) (ssorted_leaves p))
      by (intros t Ht; apply sorted_leaves_lt in Ht; unfold keep; now rewrite (Ha t) by lia).
    rewrite app_length.
    apply (loop_by_sim rel agree n).
    - intros st st' H. apply H.
    - intros st st' t H Ht. now apply ready_agree.
    - intros st st' t H Ht. now apply schedule_task_rel.
    - intros st st' H v Hv. rewrite (proj1 (task_step_frame v (sschedule_task_step p' st' n) Hv)). now apply H.
    - exact Hr.
    - intros t Ht. apply filter_In in Ht as [Ht _]. apply sorted_leaves_lt in Ht. lia.
    - reflexivity.
    - cbn. destruct (keep p' n); auto.
  Qed.
End Prio.
