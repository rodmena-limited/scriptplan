(* The pure-Python interval scanner (whole method, wrapper included) equals the maximal-runs
   specification, and so does the method with the Cython kernel. *)
From Coq Require Import ZArith List Lia.
Require Import SP.Base.PyRt SP.Gen.ScoreboardPy SP.Spec.Runs SP.Proofs.CollectCy SP.Proofs.CythonEq.
Import ListNotations.
Open Scope Z_scope.

(* the scan parameters the wrapper derives from the query window *)
Definition scan_m (minDuration r : Z) : Z :=
  if py_trunc_div minDuration r <=? 0 then 1 else py_trunc_div minDuration r.
Definition scan_a (sI m : Z) : Z := if sI - m <? 0 then 0 else sI - m.
Definition scan_b (eI m size : Z) : Z := if eI + m >? size - 1 then size - 1 else eI + m.

Section Method.
  Context {V : Type}.
  Variables (sd ed r size : Z) (sb : list V) (pred : option V -> bool) (iv : Z * Z) (minDuration : Z).
  Variables (sI eI : Z).
  Hypothesis Hsize : 1 <= size.
  Hypothesis HsI : Scoreboard_dateToIdx_py sd ed r size (fst iv) true = Ok sI.
  Hypothesis HeI : Scoreboard_dateToIdx_py sd ed r size (snd iv) true = Ok eI.
  Hypothesis Hord : sI <= eI + 1.     (* the query window is not inverted by more than a slot *)

  Let m := scan_m minDuration r.
  Let a := scan_a sI m.
  Let b := scan_b eI m size.

  Lemma scan_range : (0 <= sI < size) /\ (0 <= eI < size) /\ 0 <= a /\ b <= size - 1 /\ a <= b + 1.
  Proof.
    pose proof (dateToIdx_force_range Hsize HsI). pose proof (dateToIdx_force_range Hsize HeI).
    assert (1 <= m) by (unfold m, scan_m; destruct (_ <=? 0) eqn:?; lia).
    unfold a, b, scan_a, scan_b. destruct (sI - m <? 0) eqn:?, (eI + m >? size - 1) eqn:?; lia.
  Qed.

  Lemma collectIntervals_py_scan :
    Scoreboard_collectIntervals_py sd ed r size sb iv minDuration pred
    = scan (pcy sb pred) b sI eI m sd r (Z.to_nat (b + 2 - a)) a 0 0 [].
  Proof.
    destruct scan_range as (RsI & ReI & Ha & Hb & _).
    unfold Scoreboard_collectIntervals_py. rewrite HsI, HeI. cbn [bind]. cbn zeta.
    fold (scan_m minDuration r). fold m.
    change (if sI - m <? 0 then 0 else sI - m) with a.
    change (if eI + m >? size - 1 then size - 1 else eI + m) with b.
    match goal with |- context [ (fix loop1 (fuel_ : nat) (idx duration start : Z) (intervals : list (Z*Z)) {struct fuel_} := _) ] =>
      set (loop := (fix loop1 (fuel_ : nat) (idx duration start : Z) (intervals : list (Z*Z)) {struct fuel_} := _)) end.
    assert (H : forall f idx d st acc, 0 <= st <= idx ->
               loop f idx d st acc = scan (pcy sb pred) b sI eI m sd r f idx d st acc).
    { induction f as [|f IH]; intros idx d st acc Hst; [reflexivity|].
      cbn [loop scan]. fold (pcy sb pred idx). destruct (idx <=? b) eqn:Hle; [|reflexivity].
      rewrite !idxToDate_in by (destruct (st <? sI) eqn:?, (idx >? eI) eqn:?; lia). cbn [bind]. rewrite conv_clip.
      destruct (pcy sb pred idx && (idx <? b)); [apply IH; destruct (d =? 0); lia|].
      destruct (d >? 0); [|apply IH; lia]. destruct (d >=? m); apply IH; lia. }
    apply H; lia.
  Qed.

  Theorem collectIntervals_py_spec :
    Scoreboard_collectIntervals_py sd ed r size sb iv minDuration pred
    = Ok (map (conv sd r) (scan_spec (pcy sb pred) a b sI eI m)).
  Proof. rewrite collectIntervals_py_scan. apply scan_meets_spec, scan_range. Qed.

  (* the same method with the Cython kernel, when no C int of the kernel wraps *)
  Hypothesis Hc1 : in_c_int (py_trunc_div (fst iv - sd) r).
  Hypothesis Hc2 : in_c_int (py_trunc_div (snd iv - sd) r).
  Hypothesis Hc3 : size < 2147483647.
  Hypothesis Hc4 : py_len sb < 2147483648.

  Theorem collectIntervals_cy_spec :
    Scoreboard_collectIntervals_cy sd ed r size sb iv minDuration pred
    = Ok (map (conv sd r) (scan_spec (pcy sb pred) a b sI eI m)).
  Proof.
    destruct scan_range as (RsI & ReI & Ha & Hb & Hab).
    unfold Scoreboard_collectIntervals_cy.
    rewrite !sb_dateToIdx_eq by assumption. rewrite HsI, HeI. cbn [bind]. cbn zeta.
    fold (scan_m minDuration r). fold m.
    change (if sI - m <? 0 then 0 else sI - m) with a.
    change (if eI + m >? size - 1 then size - 1 else eI + m) with b.
    now rewrite collect_cy_spec by lia.
  Qed.

  Corollary collectIntervals_cy_eq_py :
    Scoreboard_collectIntervals_cy sd ed r size sb iv minDuration pred
    = Scoreboard_collectIntervals_py sd ed r size sb iv minDuration pred.
  Proof. now rewrite collectIntervals_cy_spec, collectIntervals_py_spec. Qed.
End Method.
