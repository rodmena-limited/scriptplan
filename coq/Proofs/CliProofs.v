(* The command-line front end (Model/Cli.v): exit status and channels as a table of the input, the emitted report,
   clean-up on every exit path, and concurrent runs over disjoint file names (C19, C20). *)
From Coq Require Import List Bool Arith.
Require Import SP.Model.Cli SP.Spec.Fs.
Import ListNotations.

Section P.
  Variable hash : list nat -> list nat.
  Variable stamp : list nat -> list nat -> list nat.

  Lemma exit_table ch inp f auto eng :
    r_exit (plan_report hash stamp ch inp f auto eng) =
    match inp with
    | Missing | NotAFile | EmptyInput => E1
    | Undecodable => E2
    | Content b => match eng b with
                   | EngineFailed => E2
                   | EngineOk files => match pick_auto auto f files with Some _ => E0 | None => E2 end
                   end
    end.
  Proof. destruct inp; cbn; try reflexivity. destruct (eng bytes); [reflexivity|]. destruct (pick_auto auto f files); reflexivity. Qed.

  Lemma stdout_iff_success ch inp f auto eng :
    (r_exit (plan_report hash stamp ch inp f auto eng) = E0 <-> r_stdout (plan_report hash stamp ch inp f auto eng) <> None) /\
    (r_exit (plan_report hash stamp ch inp f auto eng) = E0 <-> r_diag (plan_report hash stamp ch inp f auto eng) = false).
  Proof.
    destruct inp; cbn; try (split; split; [discriminate|congruence|discriminate|discriminate]).
    destruct (eng bytes); cbn; [split; split; [discriminate|congruence|discriminate|discriminate]|].
    destruct (pick_auto auto f files); cbn; split; split; try discriminate; try congruence; reflexivity.
  Qed.

  Lemma channel_independent inp f auto eng :
    plan_report hash stamp FromFile inp f auto eng = plan_report hash stamp FromStdin inp f auto eng.
  Proof. destruct inp; reflexivity. Qed.

  Lemma pick_auto_found auto f files doc :
    In (auto, f, doc) files -> (forall d', In (auto, f, d') files -> d' = doc) ->
    pick_auto auto f files = Some doc.
  Proof.
    intros Hin Huniq. unfold pick_auto.
    destruct (find (fun x => Nat.eqb (fst (fst x)) auto && fmt_eqb (snd (fst x)) f) files) as [[[a g] d]|] eqn:E.
    - apply find_some in E as [Hi Hc]. cbn in Hc. apply andb_true_iff in Hc as [H1 H2].
      apply Nat.eqb_eq in H1. subst a. assert (g = f) by (destruct g, f; try discriminate; reflexivity). subst g.
      f_equal. cbn. now apply Huniq.
    - exfalso. apply (find_none _ _ E) in Hin. cbn in Hin. rewrite Nat.eqb_refl in Hin.
      destruct f; discriminate.
  Qed.

  Lemma own_reports_irrelevant ch bytes f auto eng files others doc :
    eng bytes = EngineOk files -> In (auto, f, doc) files -> (forall d', In (auto, f, d') files -> d' = doc) ->
    (forall x, In x others -> fst (fst x) <> auto) ->
    r_stdout (plan_report hash stamp ch (Content bytes) f auto (fun _ => EngineOk (others ++ files))) =
    r_stdout (plan_report hash stamp ch (Content bytes) f auto eng).
  Proof.
    intros He Hin Hu Ho. cbn. rewrite He.
    rewrite (pick_auto_found auto f files doc Hin Hu).
    rewrite (pick_auto_found auto f (others ++ files) doc); [reflexivity|apply in_or_app; now right|].
    intros d' Hd. apply in_app_or in Hd as [Hd|Hd]; [exfalso; now apply (Ho _ Hd)|now apply Hu].
  Qed.

  Lemma report_id_is_hash ch bytes auto eng files doc :
    eng bytes = EngineOk files -> pick_auto auto Json files = Some doc ->
    r_stdout (plan_report hash stamp ch (Content bytes) Json auto eng) = Some (stamp (hash bytes) doc).
  Proof. intros He Hp. cbn. now rewrite He, Hp. Qed.
End P.

(* C20: every exit path removes what it created *)
Lemma cleanup ch inp ok : apply_ops (trace ch inp ok) [] = [].
Proof. destruct ch, inp, ok; reflexivity. Qed.

Lemma only_private_names ch inp ok n : In (Create n) (trace ch inp ok) -> n <= 2.
Proof.
  intros H.
  assert (A : forallb (fun o => match o with Create k => k <=? 2 | Remove _ => true end) (trace ch inp ok) = true)
    by (destruct ch, inp, ok; reflexivity).
  apply Nat.leb_le. exact (proj1 (forallb_forall _ _) A _ H).
Qed.

Section Commute.
  Variable owner : nat -> nat.

  Local Definition agree (who : nat) (f g : fs) : Prop := forall n, owner n = who -> f n = g n.

  Lemma agree_upd who f g n v : agree who f g -> agree who (upd f n v) (upd g n v).
  Proof. intros H m Hm. unfold upd. destruct (Nat.eqb m n); [reflexivity|now apply H]. Qed.

  Lemma agree_upd_other who f g n v : owner n <> who -> agree who f g -> agree who (upd f n v) g.
  Proof. intros Hn H m Hm. unfold upd. destruct (Nat.eqb_spec m n) as [->|]; [contradiction|now apply H]. Qed.

  Lemma run_project : forall sched who f g, owned owner sched -> agree who f g ->
    run f sched who = run g (project sched who) who.
  Proof.
    induction sched as [|[p o] tl IH]; intros who f g Hown Hag; [reflexivity|].
    assert (Hown' : owned owner tl) by (intros q o' Hi; apply Hown; now right).
    assert (Hp : owner (name_of o) = p) by (apply Hown; now left).
    cbn [project filter fst]. destruct (Nat.eqb_spec p who) as [->|Hne].
    - (* a step of the observed process *)
      cbn [run]. destruct o as [n c|n|n]; cbn [step name_of] in *.
      1,2: apply IH; [exact Hown'|now apply agree_upd].
      rewrite Nat.eqb_refl. rewrite (Hag n Hp). f_equal. now apply IH.
    - (* a step of another process *)
      cbn [run]. destruct o as [n c|n|n]; cbn [step name_of] in *.
      1,2: apply IH; [exact Hown'|apply agree_upd_other; [now rewrite Hp|exact Hag]].
      destruct (Nat.eqb_spec p who); [contradiction|]. now apply IH.
  Qed.

  (* C20: every interleaving gives each process the observations of its solitary run *)
  Theorem interleaving_invisible sched who f : owned owner sched ->
    run f sched who = run f (project sched who) who.
  Proof. intros H. apply run_project; [exact H|intros n _; reflexivity]. Qed.
End Commute.
