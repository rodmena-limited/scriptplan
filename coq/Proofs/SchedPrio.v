(* C09: appending a strictly lowest-priority task on which nothing depends leaves the dates of
   every other task unchanged (scheduler model, every project; extend keeps resources, limits and horizon). *)
From Coq Require Import List ZArith Lia.
Require Import SP.Model.Sched SP.Proofs.Generic SP.Proofs.GenericInst SP.Proofs.SchedInv SP.Proofs.SchedOrder SP.Proofs.SchedMain SP.Proofs.SchedFinal.
Import ListNotations.

Section Prio.
  Variables (p : project) (x : task).
  Let n := length (p_tasks p).
  Definition extend : project :=
    {| p_tasks := p_tasks p ++ [x]; p_res := p_res p; p_limits := p_limits p; p_upper := p_upper p |}.
  Local Notation p' := extend.

  Hypothesis Hleaf : t_leaf x = true.
  Hypothesis Hprio : forall t, t < n -> (t_prio x < t_prio (task_of p t))%Z.
  Hypothesis Hnodep : forall t d, t < n -> In d (t_deps (task_of p t)) -> d_task d <> n.
  Hypothesis Hnocont : forall t, t < n -> ~ In n (t_leaves (task_of p t)).

  Lemma task_new : task_of p' n = x.
  Proof. unfold task_of, p', extend; cbn [p_tasks]. unfold n. rewrite app_nth2 by lia. now rewrite Nat.sub_diag. Qed.

  Lemma other_cases t : t <> n -> t < n \/ (task_of p t = dtask /\ task_of p' t = dtask).
  Proof.
    intros Hne. destruct (Nat.lt_ge_cases t n) as [Hlt|Hge]; [now left|right].
    split; apply nth_overflow; [exact Hge|]. cbn [extend p_tasks]. rewrite app_length. cbn. fold n. lia.
  Qed.

  Lemma task_other t : t <> n -> task_of p' t = task_of p t.
  Proof. intros Hne. destruct (other_cases t Hne) as [Hlt|[-> ->]]; [now apply app_nth1|reflexivity]. Qed.

  Lemma deps_other t d : t <> n -> In d (t_deps (task_of p t)) -> d_task d <> n.
  Proof. intros Hne Hd. destruct (other_cases t Hne) as [Hlt|[E _]]; [now apply (Hnodep t)|]. rewrite E in Hd. destruct Hd. Qed.

  Lemma leaves_other t : t <> n -> ~ In n (t_leaves (task_of p t)).
  Proof. intros Hne. destruct (other_cases t Hne) as [Hlt|[-> _]]; [now apply Hnocont|intros []]. Qed.

  Local Definition agree (st st' : state) : Prop := forall u, u <> n -> leaf_dates st' u = leaf_dates st u.

  Lemma span_agree st st' : agree st st' -> forall ls, ~ In n ls -> span st' ls = span st ls.
  Proof. intros Ha ls Hn. rewrite !span_eq. apply span_by_ext. intros t Ht. apply Ha. intros ->. contradiction. Qed.

  Lemma dates_agree st st' u : agree st st' -> u <> n -> dates p' st' u = dates p st u.
  Proof.
    intros Ha Hu. unfold dates. rewrite (task_other u Hu).
    destruct (t_leaf (task_of p u)); [now apply Ha|]. apply span_agree; [exact Ha|now apply leaves_other].
  Qed.

  Lemma dep_time_agree st st' d : agree st st' -> d_task d <> n -> dep_time p' st' d = dep_time p st d.
  Proof. intros Ha Hd. unfold dep_time. now rewrite (dates_agree st st' _ Ha Hd). Qed.

  Lemma ready_agree st st' t : agree st st' -> t <> n -> ready p' st' t = ready p st t.
  Proof.
    intros Ha Ht. unfold ready. rewrite (task_other t Ht). apply forallb_ext_in.
    intros d Hd. now rewrite (dates_agree st st' _ Ha (deps_other t d Ht Hd)).
  Qed.

  Lemma bound_agree st st' t : agree st st' -> t <> n -> bound p' st' t = bound p st t.
  Proof.
    intros Ha Ht. unfold bound. rewrite (task_other t Ht). destruct (t_pin (task_of p t)); [reflexivity|].
    apply fold_left_ext_in. intros acc d Hd. now rewrite (dep_time_agree st st' d Ha (deps_other t d Ht Hd)).
  Qed.

  Local Definition clean (st : state) : Prop := forall b, In b (bookings st) -> b_task b <> n.

  Lemma counts_same l b : b_task b <> n -> counts p' l b = counts p l b.
  Proof. intros Hb. unfold counts. now rewrite (task_other _ Hb). Qed.

  Lemma usage_same st st' l k : bookings st' = bookings st -> clean st -> usage p' st' l k = usage p st l k.
  Proof.
    intros Hb Hc. unfold usage. rewrite Hb. f_equal. apply filter_ext_in. intros b Hin.
    now rewrite (counts_same l b (Hc b Hin)).
  Qed.

  Lemma can_book_same st st' t r s : bookings st' = bookings st -> clean st -> t <> n ->
    can_book p' st' t r s = can_book p st t r s.
  Proof.
    intros Hb Hc Ht. unfold can_book, booked, limits_of. rewrite Hb, (task_other t Ht). f_equal.
    apply forallb_ext_in. intros l _. unfold limit_ok. now rewrite (usage_same st st' l _ Hb Hc).
  Qed.

  Set Implicit Arguments.
  Record rel (st st' : state) : Prop := {
    rel_bookings : bookings st' = bookings st;
    rel_clean : clean st;
    rel_agree : agree st st'
  }.
  Unset Implicit Arguments.

  Lemma add_rel st st' t r s : rel st st' -> t <> n -> rel (add st t r s) (add st' t r s).
  Proof.
    intros Hr Ht. constructor; [cbn; now rewrite (rel_bookings Hr)| |apply Hr].
    intros b [<-|Hb]; [exact Ht|now apply (rel_clean Hr)].
  Qed.

  Lemma book_team_rel t s : t <> n -> forall team st st', rel st st' ->
    match book_team p st t s team, book_team p' st' t s team with
    | Some a, Some a' => rel a a'
    | None, None => True
    | _, _ => False
    end.
  Proof.
    intros Ht. induction team as [|r tl IH]; intros st st' Hr; cbn; [exact Hr|].
    rewrite (can_book_same st st' t r s (rel_bookings Hr) (rel_clean Hr) Ht).
    destruct (can_book p st t r s); [|exact I]. apply IH. now apply add_rel.
  Qed.

  Lemma walk_rel t : t <> n -> forall fuel s need first st st', rel st st' ->
    let '(a, d) := walk p t fuel s need first st in
    let '(a', d') := walk p' t fuel s need first st' in
    d' = d /\ rel a a'.
  Proof.
    intros Ht. induction fuel as [|fuel IH]; intros s need first st st' Hr; [split; [reflexivity|exact Hr]|].
    rewrite !walk_S, (task_other t Ht).
    pose proof (book_team_rel t s Ht (t_team (task_of p t)) st st' Hr) as Hb.
    destruct (book_team p st t s (t_team (task_of p t))) as [a|];
      destruct (book_team p' st' t s (t_team (task_of p t))) as [a'|]; try contradiction; [|now apply IH].
    destruct (need <=? 1); [split; [reflexivity|exact Hb]|now apply IH].
  Qed.

  Lemma place_rel st st' t d : rel st st' -> rel (place st t d) (place st' t d).
  Proof.
    intros Hr. constructor; [apply Hr|apply Hr|].
    intros u Hu. unfold leaf_dates, place; cbn. destruct (Nat.eqb u t); [reflexivity|now apply (rel_agree Hr)].
  Qed.

  Lemma schedule_task_rel st st' t : rel st st' -> t <> n ->
    rel (schedule_task p st t) (schedule_task p' st' t).
  Proof.
    intros Hr Ht. unfold schedule_task. rewrite (bound_agree st st' t (rel_agree Hr) Ht), (task_other t Ht).
    change (p_upper p') with (p_upper p).
    destruct (p_upper p <? bound p st t); [exact Hr|].
    destruct (t_need (task_of p t)) as [|nd]; [now apply place_rel|].
    destruct (t_team (task_of p t)) as [|r0 tm] eqn:Et; [exact Hr|].
    pose proof (walk_rel t Ht (S (p_upper p) - bound p st t) (bound p st t) (S nd) None st st' Hr) as Hw.
    destruct (walk p t _ _ (S nd) None st) as [a d]. destruct (walk p' t _ _ (S nd) None st') as [a' d'].
    destruct Hw as [-> Ha]. destruct d as [d|]; [now apply place_rel|exact Ha].
  Qed.

  Lemma length_extend : length (p_tasks p') = S n.
  Proof. cbn [extend p_tasks]. rewrite app_length. cbn. fold n. lia. Qed.

  Lemma sorted_leaves_lt u : In u (sorted_leaves p) -> u < n.
  Proof. intros Hu. now apply sorted_leaves_spec in Hu. Qed.

  Lemma sorted_leaves_extend : sorted_leaves p' = sorted_leaves p ++ [n].
  Proof.
    rewrite !sorted_leaves_eq, length_extend. apply sorted_by_lowest.
    - intros t Ht. now rewrite (task_other t) by lia.
    - now rewrite task_new.
    - intros t Ht. rewrite task_new. now apply Hprio.
  Qed.

  (* the pre-pass of the extended project is that of p, and then perhaps the new task *)
  Lemma prepass_rel : rel (prepass p) (prepass p').
  Proof.
    assert (E : prepass p' = pre_step_by place (pin_of p') (prepass p) n).
    { rewrite (prepass_eq p'), length_extend, prepass_by_S, (prepass_eq p). fold n. f_equal.
      apply prepass_by_ext. intros t Ht. unfold pin_of. now rewrite (task_other t) by lia. }
    assert (Hc : clean (prepass p)) by (intros b Hb; rewrite (proj1 (prepass_PinsOnly p)) in Hb; destruct Hb).
    rewrite E. unfold pre_step_by. destruct (pin_of p' n); (constructor; [reflexivity|exact Hc|]); intros u Hu.
    - now apply leaf_dates_place_other.
    - reflexivity.
  Qed.

  (* the new task is picked only when no other remaining task is ready, and placing it makes nothing ready
     (Generic.loop_by_sim) *)
  Theorem lowest_priority_harmless u : u <> n -> dates p' (schedule p') u = dates p (schedule p) u.
  Proof.
    intros Hu. apply dates_agree; [|exact Hu]. unfold schedule. cbn zeta. rewrite sorted_leaves_extend, filter_app, !loop_eq.
    pose proof prepass_rel as Hr. pose proof (rel_agree Hr) as Ha.
    set (keep q := fun t => match leaf_dates (prepass q) t with Some _ => false | None => true end).
    fold (keep p) (keep p').
    rewrite (filter_ext_in (keep p') (keep p) (sorted_leaves p))
      by (intros t Ht; apply sorted_leaves_lt in Ht; unfold keep; now rewrite (Ha t) by lia).
    rewrite app_length.
    apply (loop_by_sim rel agree n).
    - intros st st' H. apply (rel_agree H).
    - intros st st' t H Ht. now apply ready_agree.
    - intros st st' t H Ht. now apply schedule_task_rel.
    - intros st st' H v Hv. rewrite (proj2 (schedule_task_others p' st' n)) by exact Hv. now apply H.
    - exact Hr.
    - intros t Ht. apply filter_In in Ht as [Ht _]. apply sorted_leaves_lt in Ht. lia.
    - reflexivity.
    - cbn. destruct (keep p' n); auto.
  Qed.

End Prio.
