(* Paths in the task tree (Model/Parse.v): resolving an id path is unchanged by a consistent renaming of ids, a relative
   and an absolute spelling of the same path agree, and the order in which dependency edges are written is immaterial (C15). *)
From Coq Require Import List Arith Lia Permutation.
Require Import SP.Model.Parse.
Import ListNotations.

Lemma at_pos_step k k2 rest sibs :
  at_pos (k :: k2 :: rest) sibs =
  match nth_error sibs k with Some t => at_pos (k2 :: rest) (tkids t) | None => None end.
Proof. reflexivity. Qed.

Lemma find_idx_nth i t : forall l s k, find_idx i l s = Some (k, t) -> s <= k /\ nth_error l (k - s) = Some t.
Proof.
  induction l as [|x tl IH]; intros s k H; cbn in H; [discriminate|].
  destruct (Nat.eqb (tid x) i); [injection H as <- <-; split; [lia|]; now rewrite Nat.sub_diag|].
  destruct (IH _ _ H) as [A B]. split; [lia|]. replace (k - s) with (S (k - S s)) by lia. exact B.
Qed.

Section Rename.
  Variable r : nat -> nat.
  Hypothesis r_inj : forall a b, r a = r b -> a = b.

  Lemma eqb_rename a b : Nat.eqb (r a) (r b) = Nat.eqb a b.
  Proof.
    destruct (Nat.eqb_spec a b) as [->|Hne]; [apply Nat.eqb_refl|].
    apply Nat.eqb_neq. intros H. apply Hne. now apply r_inj.
  Qed.

  Lemma tid_rename t : tid (rename r t) = r (tid t).
  Proof. destruct t; reflexivity. Qed.
  Lemma tkids_rename t : tkids (rename r t) = map (rename r) (tkids t).
  Proof. destruct t; reflexivity. Qed.

  Lemma find_idx_rename id : forall l k,
    find_idx (r id) (map (rename r) l) k =
    match find_idx id l k with Some (i, t) => Some (i, rename r t) | None => None end.
  Proof.
    induction l as [|t tl IH]; intros k; [reflexivity|]. cbn [map find_idx].
    rewrite tid_rename, eqb_rename. destruct (Nat.eqb (tid t) id); [reflexivity|apply IH].
  Qed.

  Lemma descend_rename : forall ids sibs,
    descend (map r ids) (map (rename r) sibs) = descend ids sibs.
  Proof.
    induction ids as [|i rest IH]; intros sibs; [reflexivity|]. cbn [map descend].
    rewrite find_idx_rename. destruct (find_idx i sibs 0) as [[k t]|]; [|reflexivity].
    rewrite tkids_rename, IH. reflexivity.
  Qed.

  Lemma at_pos_rename : forall pos sibs,
    at_pos pos (map (rename r) sibs) = option_map (rename r) (at_pos pos sibs).
  Proof.
    induction pos as [|k rest IH]; intros sibs; [reflexivity|].
    destruct rest as [|k2 rest].
    - cbn. now rewrite nth_error_map.
    - rewrite !at_pos_step, nth_error_map. destruct (nth_error sibs k) as [t|]; [|reflexivity]. cbn [option_map].
      rewrite tkids_rename. apply IH.
  Qed.

  Theorem resolve_abs_rename forest ids :
    resolve_abs (map (rename r) forest) (map r ids) = resolve_abs forest ids.
  Proof. apply descend_rename. Qed.

  Theorem resolve_rel_rename forest from n ids :
    resolve_rel (map (rename r) forest) from n (map r ids) = resolve_rel forest from n ids.
  Proof.
    unfold resolve_rel. destruct (firstn (length from - n) from) as [|b0 bs] eqn:E; [apply descend_rename|].
    rewrite at_pos_rename. destruct (at_pos (b0 :: bs) forest) as [t|]; [|reflexivity]. cbn [option_map].
    rewrite tkids_rename, descend_rename. reflexivity.
  Qed.
End Rename.

Lemma descend_nil ids sibs : descend ids sibs = Some [] -> ids = [].
Proof.
  destruct ids as [|i rest]; [reflexivity|]. cbn. destruct (find_idx i sibs 0) as [[k t]|]; [|discriminate].
  now destruct (descend rest (tkids t)).
Qed.

(* a relative and an absolute spelling that name the same chain of ids below the same base agree *)
Lemma descend_at_pos : forall pos sibs t ids,
  at_pos pos sibs = Some t ->
  forall base_ids, descend base_ids sibs = Some pos ->
  descend (base_ids ++ ids) sibs = match descend ids (tkids t) with Some p => Some (pos ++ p) | None => None end.
Proof.
  induction pos as [|k rest IH]; intros sibs t ids Hat base_ids Hd; [discriminate|].
  destruct base_ids as [|i brest]; [cbn in Hd; discriminate|].
  cbn [app descend] in *. destruct (find_idx i sibs 0) as [[k' t']|] eqn:Ef; [|discriminate].
  destruct (descend brest (tkids t')) as [p'|] eqn:Ed; [|discriminate]. injection Hd as -> ->.
  assert (Hn : nth_error sibs k = Some t').
  { destruct (find_idx_nth _ _ _ _ _ Ef) as [_ B]. now rewrite Nat.sub_0_r in B. }
  destruct rest as [|k2 rest].
  - cbn in Hat. rewrite Hn in Hat. injection Hat as <-.
    apply descend_nil in Ed as ->. cbn [app]. destruct (descend ids (tkids t')); reflexivity.
  - rewrite at_pos_step, Hn in Hat. rewrite (IH (tkids t') t ids Hat brest Ed).
    destruct (descend ids (tkids t)); reflexivity.
Qed.

(* a running maximum does not depend on the order of the list.  Sched.bound is such a fold over the edges of a task
   (there a predecessor without dates is skipped, and a ready task has none), so moving an edge from 'depends' on the
   target to 'precedes' on the source, which permutes the edges, changes nothing *)
Lemma fold_max_perm (f : nat -> nat) : forall l l', Permutation l l' -> forall acc,
  fold_left (fun a d => Nat.max a (f d)) l acc = fold_left (fun a d => Nat.max a (f d)) l' acc.
Proof.
  induction 1 as [|x l l' _ IH|x y l|l l' l'' _ IH1 _ IH2]; intros acc; cbn.
  - reflexivity.
  - apply IH.
  - f_equal. lia.
  - now rewrite IH1.
Qed.

Lemma edges_precedes_perm {O} (deps prec : list (nat * nat * O)) (b a : nat) (o : O) :
  Permutation (edges_of ((b, a, o) :: deps) prec) (edges_of deps ((a, b, o) :: prec)).
Proof. unfold edges_of. cbn [map fst snd]. apply Permutation_middle. Qed.
