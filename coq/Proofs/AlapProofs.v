(* The backward scheduler (Model/Alap.v) inherits the final-state theorems of the forward scheduler through the time
   mirror: slot s <-> n-1-s, boundary k <-> n-k.  Each alap_X below is the twin of X in SchedFinal.v, SchedTeam.v or
   SchedPrio.v, or of a field of SchedInv.schedule_inv, and stands for the same property: alap_no_double_booking C01,
   alap_working C02 and C11 (slots), alap_exact_slots C03, alap_deps_respected C04, alap_limits C05, alap_frame C06, alap_no_idle_team and alap_no_idle C08,
   alap_lowest_priority_harmless C09, alap_container_summary C10, alap_dates_in_horizon C11 (dates).  C07, the order
   of service, has no twin: the mirrored project is served in the same order. *)
From Coq Require Import List Bool ZArith Lia.
Require Import SP.Model.Sched SP.Model.Alap SP.Proofs.Generic SP.Proofs.SchedInv SP.Proofs.SchedWalk SP.Proofs.SchedMain SP.Proofs.SchedFinal SP.Proofs.SchedTeam.
Import ListNotations.

Section Coordinates.
  Variable n : nat.

  Lemma flip_flip s : s < n -> flip n (flip n s) = s.
  Proof. unfold flip. lia. Qed.

  Lemma flip_in f e x : f <= x < e -> e <= n -> n - e <= flip n x < n - f.
  Proof. unfold flip. lia. Qed.

  Lemma flip_in_inv f e x : n - e <= x < n - f -> f <= flip n x < e.
  Proof. unfold flip. lia. Qed.

  Lemma flip_lt s : s < n -> flip n s < n.
  Proof. unfold flip. lia. Qed.

  Lemma flip_ends f e : f < e -> flip n (e - 1) = n - e /\ flip n f = n - f - 1.
  Proof. unfold flip. intros H. split; [lia|clear H; lia]. Qed.

  Lemma boundary_gap x g b : x + g <= b -> b <= n -> n - b + g <= n - x.
  Proof. lia. Qed.
End Coordinates.

Section Alap.
  Variable p : project.
  Local Notation n := (p_upper p).
  Local Notation q := (mirror p).
  Local Notation a := (aschedule p).

  Lemma task_of_mirror t :
    (t < length (p_tasks p) /\ task_of q t = mirror_task n (task_of p t)) \/
    (length (p_tasks p) <= t /\ task_of q t = dtask /\ task_of p t = dtask).
  Proof. apply nth_map_or. Qed.

  Lemma m_field {A} (g : task -> A) : (forall k, g (mirror_task n k) = g k) ->
    forall t, g (task_of q t) = g (task_of p t).
  Proof. intros Hg t. destruct (task_of_mirror t) as [[_ ->]|[_ [-> ->]]]; [apply Hg|reflexivity]. Qed.
  Definition m_need := m_field t_need (fun _ => eq_refl).
  Definition m_team := m_field t_team (fun _ => eq_refl).
  Definition m_deps := m_field t_deps (fun _ => eq_refl).
  Definition m_leaf := m_field t_leaf (fun _ => eq_refl).
  Definition m_leaves := m_field t_leaves (fun _ => eq_refl).
  Definition m_limits := m_field t_limits (fun _ => eq_refl).
  Definition m_prio := m_field t_prio (fun _ => eq_refl).

  Lemma m_pin t : t_pin (task_of q t) = option_map (fun e => n - e) (t_pin (task_of p t)).
  Proof. destruct (task_of_mirror t) as [[_ ->]|[_ [-> ->]]]; reflexivity. Qed.
  Lemma m_lb t : t < length (p_tasks p) -> t_lb (task_of q t) = n - t_lb (task_of p t).
  Proof. intros H. destruct (task_of_mirror t) as [[_ ->]|[H' _]]; [reflexivity|now apply Nat.lt_nge in H]. Qed.

  Lemma res_of_mirror r :
    r_limits (res_of q r) = r_limits (res_of p r) /\
    forall s, r_work (res_of q r) s = (s <? n) && r_work (res_of p r) (flip n s).
  Proof.
    unfold res_of. cbn [mirror p_res].
    destruct (nth_map_or (mirror_res n) (p_res p) dres dres r) as [[_ ->]|[_ [-> ->]]]; split; try reflexivity.
    intros s. cbn. now rewrite andb_false_r.
  Qed.
  Definition m_rlimits r := proj1 (res_of_mirror r).
  Definition m_work r := proj2 (res_of_mirror r).

  Lemma m_work_flip r x : x < n -> r_work (res_of q r) (flip n x) = r_work (res_of p r) x.
  Proof. intros H. rewrite m_work, flip_flip by exact H. now rewrite (proj2 (Nat.ltb_lt _ _) (flip_lt n x H)). Qed.

  (* mirror_lim n dlim is dlim, by computation *)
  Lemma lim_of_mirror l : lim_of q l = mirror_lim n (lim_of p l).
  Proof. exact (map_nth (mirror_lim n) (p_limits p) dlim l). Qed.

  Lemma m_limits_of t r : limits_of q t r = limits_of p t r.
  Proof. unfold limits_of. rewrite m_rlimits, m_limits. f_equal. apply filter_ext. intros l. now rewrite lim_of_mirror. Qed.

  Lemma m_counts l y : counts q l y = counts p l (unflip_booking n y).
  Proof. unfold counts. cbn [unflip_booking b_res b_task]. now rewrite m_rlimits, m_limits, lim_of_mirror. Qed.

  Lemma m_team_count l t rs : team_count q l t rs = team_count p l t rs.
  Proof. unfold team_count. f_equal. apply filter_ext. intros r. apply m_counts. Qed.

  Lemma mirrored_booking y : In y (bookings a) -> b_slot y < n /\ r_work (res_of p (b_res y)) (flip n (b_slot y)) = true.
  Proof.
    intros Hy. pose proof (inv_work (schedule_inv q) _ Hy) as W. rewrite m_work in W.
    apply andb_true_iff in W as [W1 W2]. apply Nat.ltb_lt in W1. split; assumption.
  Qed.

  Lemma mirrored_dates_in_horizon t f e : leaf_dates a t = Some (f, e) -> f <= e /\ e <= n.
  Proof.
    intros Ht. destruct (Good_frame (final_good q t f e Ht)) as [Hm Hw].
    destruct (Nat.eq_dec (t_need (task_of q t)) 0) as [Hn|Hn].
    - (* a milestone: at its own date, which is a mirrored one, or else inside the horizon *)
      destruct (Hm Hn) as (-> & Hpin & Hnone). split; [apply le_n|]. rewrite m_pin in Hpin, Hnone.
      destruct (t_pin (task_of p t)) as [s|]; [rewrite (Hpin _ eq_refl); apply Nat.le_sub_l|now apply Hnone].
    - (* work: the last slot is booked, and no mirrored resource works in slot n *)
      destruct (Hw Hn) as (A & _ & B & C). split; [now apply Nat.lt_le_incl|].
      destruct (t_team (task_of q t)) as [|r tl]; [contradiction|]. destruct (C r (in_eq _ _)) as [_ C2].
      apply mirrored_booking in C2 as [C2 _]. cbn in C2. clear - A C2. lia.
  Qed.

  Lemma alap_leaf_dates_inv t f e : alap_leaf_dates p t = Some (f, e) ->
    exists f' e', leaf_dates a t = Some (f', e') /\ f' <= e' /\ e' <= n /\ f = n - e' /\ e = n - f'.
  Proof.
    unfold alap_leaf_dates. destruct (leaf_dates a t) as [[f' e']|] eqn:E; [|discriminate].
    intros [= <- <-]. destruct (mirrored_dates_in_horizon _ _ _ E). now exists f', e'.
  Qed.

  Lemma alap_dep b d : b <= n ->
    (exists s' e', dates q a (d_task d) = Some (s', e') /\ (if d_onstart d then s' else e') + d_gap d <= b) ->
    exists s' e', alap_dates p (d_task d) = Some (s', e') /\ n - b + d_gap d <= (if d_onstart d then e' else s').
  Proof.
    intros Hb (s' & e' & D1 & D2). exists (n - e'), (n - s'). unfold alap_dates. rewrite D1. split; [reflexivity|].
    destruct (d_onstart d); now apply boundary_gap.
  Qed.

  Theorem alap_deps_respected t f e :
    alap_leaf_dates p t = Some (f, e) -> t_pin (task_of p t) = None -> t < length (p_tasks p) ->
    e <= t_lb (task_of p t) /\
    forall d, In d (t_deps (task_of p t)) ->
      exists s' e', alap_dates p (d_task d) = Some (s', e') /\ e + d_gap d <= (if d_onstart d then e' else s').
  Proof.
    intros Ht Hpin Hlt. apply alap_leaf_dates_inv in Ht as (f' & e' & E & H1 & H2 & -> & ->).
    destruct (deps_respected q t f' e' E) as [A B]; [now rewrite m_pin, Hpin|].
    rewrite m_lb in A by exact Hlt. split.
    - clear - A H1 H2. lia.
    - intros d Hd. apply alap_dep; [now transitivity e'|]. apply B. now rewrite m_deps.
  Qed.

  Theorem alap_frame t f e : alap_leaf_dates p t = Some (f, e) ->
    (t_need (task_of p t) = 0 -> f = e) /\
    (t_need (task_of p t) <> 0 ->
       f < e /\
       (forall r, In r (t_team (task_of p t)) -> In (mk t r f) (alap_bookings p) /\ In (mk t r (e - 1)) (alap_bookings p)) /\
       (forall x, In x (alap_bookings p) -> b_task x = t -> f <= b_slot x < e)).
  Proof.
    intros Ht. apply alap_leaf_dates_inv in Ht as (f' & e' & E & H1 & H2 & -> & ->).
    destruct (frame q t f' e' E) as [A B]. rewrite m_need in A, B. split.
    - intros Hn. now rewrite (A Hn).
    - intros Hn. destruct (B Hn) as (B1 & B2 & B3). rewrite m_team in B2. split; [|split].
      + clear - B1 H2. lia.
      + intros r Hr. destruct (B2 r Hr) as [C1 C2]. apply (in_map (unflip_booking n)) in C1, C2.
        destruct (flip_ends n f' e' B1) as [<- <-]. split; assumption.
      + intros x Hx Hxt. apply in_map_iff in Hx as (y & <- & Hy). apply flip_in; [now apply B3|exact H2].
  Qed.

  Theorem alap_working b : In b (alap_bookings p) -> b_slot b < n /\ r_work (res_of p (b_res b)) (b_slot b) = true.
  Proof.
    intros Hb. apply in_map_iff in Hb as (y & <- & Hy). destruct (mirrored_booking y Hy) as [A B].
    split; [now apply flip_lt|exact B].
  Qed.

  Theorem alap_dates_in_horizon t f e : alap_leaf_dates p t = Some (f, e) -> f <= e /\ e <= n.
  Proof.
    intros Ht. apply alap_leaf_dates_inv in Ht as (f' & e' & _ & H1 & _ & -> & ->).
    split; [now apply Nat.sub_le_mono_l|apply Nat.le_sub_l].
  Qed.

  Theorem alap_no_double_booking : NoDup (map key (alap_bookings p)).
  Proof.
    (* mirroring the keys once more gives back the keys of the mirror image, which are distinct *)
    apply (NoDup_map_inv (fun k => (fst k, flip n (snd k)))). unfold alap_bookings. rewrite !map_map.
    rewrite (map_ext_in _ key); [apply (inv_nodup (schedule_inv q))|].
    intros y Hy. unfold key. cbn. now rewrite flip_flip by now apply mirrored_booking.
  Qed.

  Lemma alap_usage_eq l k : usage p {| bookings := alap_bookings p; placed := [] |} l k = usage q a l k.
  Proof.
    unfold usage. cbn [bookings]. unfold alap_bookings. rewrite filter_map_comm, map_length.
    f_equal. apply filter_ext. intros y. now rewrite m_counts, lim_of_mirror.
  Qed.

  Theorem alap_limits l k : usage p {| bookings := alap_bookings p; placed := [] |} l k <= l_value (lim_of p l).
  Proof.
    rewrite alap_usage_eq. change (l_value (lim_of p l)) with (l_value (mirror_lim n (lim_of p l))).
    rewrite <- lim_of_mirror. apply (inv_limit (schedule_inv q)).
  Qed.

  Theorem alap_no_idle_team t f e : alap_leaf_dates p t = Some (f, e) -> t_need (task_of p t) <> 0 ->
    NoDup (t_team (task_of p t)) ->
    exists dl, e <= dl /\ dl <= n /\
      (forall s, t_pin (task_of p t) = Some s -> s <= n -> dl = s) /\
      (t_pin (task_of p t) = None -> forall d, In d (t_deps (task_of p t)) ->
         exists s' e', alap_dates p (d_task d) = Some (s', e') /\ dl + d_gap d <= (if d_onstart d then e' else s')) /\
      forall x, f <= x -> x < dl ->
        (forall r, In r (t_team (task_of p t)) -> In (mk t r x) (alap_bookings p)) \/
        exists r, In r (t_team (task_of p t)) /\
          (r_work (res_of p r) x = false \/
           (exists y, In y (alap_bookings p) /\ b_res y = r /\ b_slot y = x /\ b_task y <> t) \/
           (exists l, In l (limits_of p t r) /\
              l_value (lim_of p l) <
              usage p {| bookings := alap_bookings p; placed := [] |} l (l_period (lim_of p l) x) + team_count p l t (t_team (task_of p t)))).
  Proof.
    intros Ht Hn Hnd. apply alap_leaf_dates_inv in Ht as (f' & e' & E & H1 & H2 & -> & ->).
    rewrite <- m_need in Hn. rewrite <- m_team in Hnd.
    destruct (no_idle_team q t f' e' E Hn Hnd) as (b & Hb & Hpinb & Hdeps & Hslots).
    assert (Hbn : b <= n) by (clear - Hb H1 H2; lia).
    rewrite m_team in Hslots.
    exists (n - b). split; [now apply Nat.sub_le_mono_l|]. split; [apply Nat.le_sub_l|]. split; [|split].
    - intros s Hs Hsn. rewrite (Hpinb (n - s)); [clear - Hsn; lia|]. now rewrite m_pin, Hs.
    - intros Hpin d Hd. apply alap_dep; [exact Hbn|]. apply Hdeps; [now rewrite m_pin, Hpin|now rewrite m_deps].
    - intros x Hx1 Hx2. assert (Hxn : x < n) by (clear - Hx2; lia).
      destruct (flip_in_inv n b e' x (conj Hx1 Hx2)) as [Hb1 Hb2].
      destruct (Hslots _ Hb1 Hb2) as [L|(r & Hr & Why)].
      { left. intros r Hr. rewrite <- (flip_flip n x Hxn). exact (in_map (unflip_booking n) _ _ (L r Hr)). }
      right. exists r. split; [exact Hr|].
      destruct Why as [L|[(y & Y1 & Y2 & Y3 & Y4)|(l & Hl & Hu)]]; [left|right; left|right; right].
      + now rewrite m_work_flip in L.
      + exists (unflip_booking n y). split; [now apply in_map|].
        cbn. split; [exact Y2|]. split; [rewrite Y3; now apply flip_flip|exact Y4].
      + exists l. rewrite m_limits_of in Hl. split; [exact Hl|].
        rewrite alap_usage_eq. rewrite lim_of_mirror, m_team_count in Hu. cbn [mirror_lim l_value l_period] in Hu.
        now rewrite flip_flip in Hu by exact Hxn.
  Qed.

  Theorem alap_no_idle t r f e : alap_leaf_dates p t = Some (f, e) -> t_need (task_of p t) <> 0 ->
    t_team (task_of p t) = [r] -> limits_of p t r = [] ->
    exists dl, e <= dl /\ dl <= n /\
      (forall s, t_pin (task_of p t) = Some s -> s <= n -> dl = s) /\
      (t_pin (task_of p t) = None -> forall d, In d (t_deps (task_of p t)) ->
         exists s' e', alap_dates p (d_task d) = Some (s', e') /\ dl + d_gap d <= (if d_onstart d then e' else s')) /\
      forall x, f <= x -> x < dl ->
        In (mk t r x) (alap_bookings p) \/ r_work (res_of p r) x = false \/
        exists y, In y (alap_bookings p) /\ b_res y = r /\ b_slot y = x /\ b_task y <> t.
  Proof.
    intros Ht Hn Hteam Hlim.
    destruct (alap_no_idle_team t f e Ht Hn) as (dl & A & B & C & D & F).
    { rewrite Hteam. constructor; [intros []|constructor]. }
    exists dl. split; [exact A|]. split; [exact B|]. split; [exact C|]. split; [exact D|].
    rewrite Hteam in F. intros x Hx1 Hx2. exact (team_of_one (limits_of p t) r Hlim (F x Hx1 Hx2)).
  Qed.

  Theorem alap_container_summary c : t_leaf (task_of p c) = false -> t_leaves (task_of p c) <> [] ->
    (forall s e, alap_dates p c = Some (s, e) ->
       (forall t, In t (t_leaves (task_of p c)) -> exists d, alap_leaf_dates p t = Some d) /\
       (forall t s' e', In t (t_leaves (task_of p c)) -> alap_leaf_dates p t = Some (s', e') -> s <= s' /\ e' <= e) /\
       (exists t s' e', In t (t_leaves (task_of p c)) /\ alap_leaf_dates p t = Some (s', e') /\ s' = s) /\
       (exists t s' e', In t (t_leaves (task_of p c)) /\ alap_leaf_dates p t = Some (s', e') /\ e' = e)) /\
    (alap_dates p c = None -> exists t, In t (t_leaves (task_of p c)) /\ alap_leaf_dates p t = None).
  Proof.
    intros Hc Hne. rewrite <- m_leaf in Hc. rewrite <- m_leaves in Hne |- *.
    destruct (container_summary q c Hc Hne) as [A B]. unfold final in *. unfold alap_dates, alap_leaf_dates. split.
    - intros s e H. destruct (dates q a c) as [[s2 e2]|] eqn:E; [|discriminate]. injection H as <- <-.
      destruct (A s2 e2 E) as (A1 & A2 & (t3 & s3 & e3 & A31 & A32 & <-) & (t4 & s4 & e4 & A41 & A42 & <-)).
      split; [|split; [|split]].
      + intros t Ht. destruct (A1 t Ht) as [d Hd]. unfold aschedule. rewrite Hd. cbn. eauto.
      + intros t s' e' Ht H. destruct (leaf_dates a t) as [[sl el]|] eqn:El; [|discriminate].
        injection H as <- <-. destruct (A2 t sl el Ht El). split; now apply Nat.sub_le_mono_l.
      + exists t4, (n - e4), (n - s4). unfold aschedule. rewrite A42. auto.
      + exists t3, (n - e3), (n - s3). unfold aschedule. rewrite A32. auto.
    - intros H. destruct (dates q a c) eqn:E; [discriminate|]. destruct (B E) as (t & Ht & Hn).
      exists t. split; [exact Ht|]. unfold aschedule. now rewrite Hn.
  Qed.

  Lemma unflip_block t s : map (unflip_booking n) (block q t s) = block p t (flip n s).
  Proof. unfold block. now rewrite map_rev, map_map, m_team. Qed.

  Theorem alap_exact_slots t f e : alap_leaf_dates p t = Some (f, e) -> t_need (task_of p t) <> 0 ->
    exists ss, length ss = t_need (task_of p t) /\
               filter (fun x => Nat.eqb (b_task x) t) (alap_bookings p) = concat (map (block p t) ss).
  Proof.
    intros Ht Hn. apply alap_leaf_dates_inv in Ht as (f' & e' & E & _).
    rewrite <- m_need in Hn. destruct (exact_slots q t f' e' E Hn) as (ss & S1 & S2). unfold final in S2.
    exists (map (flip n) ss). split; [now rewrite map_length, S1, m_need|].
    unfold alap_bookings. rewrite filter_map_comm. cbn [unflip_booking b_task]. unfold aschedule. rewrite S2.
    rewrite concat_map, !map_map. f_equal. apply map_ext. intros s. apply unflip_block.
  Qed.
End Alap.

Require Import SP.Proofs.SchedPrio.

Lemma mirror_extend p x : mirror (extend p x) = extend (mirror p) (mirror_task (p_upper p) x).
Proof. unfold mirror, extend. cbn [p_tasks p_res p_limits p_upper]. now rewrite map_app. Qed.

(* C09, backward: appending a task with strictly the lowest priority that no task names among its successor edges (in
   real terms: the new task has no predecessor) and that lies in no container leaves every other task's dates
   unchanged; the new task itself may have any effort, team, limits, deadline and successors *)
Theorem alap_lowest_priority_harmless (p : project) (x : task) :
  t_leaf x = true ->
  (forall t, t < length (p_tasks p) -> (t_prio x < t_prio (task_of p t))%Z) ->
  (forall t d, t < length (p_tasks p) -> In d (t_deps (task_of p t)) -> d_task d <> length (p_tasks p)) ->
  (forall t, t < length (p_tasks p) -> ~ In (length (p_tasks p)) (t_leaves (task_of p t))) ->
  forall u, u <> length (p_tasks p) -> alap_dates (extend p x) u = alap_dates p u.
Proof.
  intros H1 H2 H3 H4 u Hu. unfold alap_dates, aschedule. rewrite mirror_extend.
  assert (L : length (p_tasks (mirror p)) = length (p_tasks p)) by (cbn; apply map_length).
  rewrite (lowest_priority_harmless (mirror p) (mirror_task (p_upper p) x)); [reflexivity| | | | |].
  - exact H1.
  - intros t Ht. rewrite L in Ht. rewrite m_prio. now apply H2.
  - intros t d Ht Hd. rewrite L in *. rewrite m_deps in Hd. now apply (H3 t).
  - intros t Ht. rewrite L in *. rewrite m_leaves. now apply H4.
  - now rewrite L.
Qed.
