(* What the slot walk of one task does: from its first slot on it books whole-team blocks for this task and nothing
   else, takes the earliest slots in which the team can be booked, and reports the first of them as the start and
   the boundary after the last as the end (C03, C06, C07, C08). *)
From Coq Require Import List ZArith Lia.
Require Import SP.Model.Sched SP.Proofs.Generic SP.Proofs.SchedInv.
Import ListNotations.

Section Walk.
  Variable p : project.

  Definition extends (st st' : state) : Prop :=
    (exists new, bookings st' = new ++ bookings st) /\
    (exists newp, placed st' = newp ++ placed st).

  Lemma extends_refl st : extends st st.
  Proof. split; exists []; reflexivity. Qed.

  Lemma extends_trans a b c : extends a b -> extends b c -> extends a c.
  Proof.
    intros [[n1 H1] [m1 G1]] [[n2 H2] [m2 G2]]. split.
    - exists (n2 ++ n1). rewrite H2, H1. now rewrite app_assoc.
    - exists (m2 ++ m1). rewrite G2, G1. now rewrite app_assoc.
  Qed.

  Definition bext (a b : state) : Prop := exists n, bookings b = n ++ bookings a.
  Lemma bext_refl a : bext a a. Proof. exists []; reflexivity. Qed.
  Lemma bext_in a b x : bext a b -> In x (bookings a) -> In x (bookings b).
  Proof. intros [n H] Hin. rewrite H. apply in_or_app. now right. Qed.
  Lemma bext_trans a b c : bext a b -> bext b c -> bext a c.
  Proof. intros [n1 H1] [n2 H2]. exists (n2 ++ n1). rewrite H2, H1. now rewrite app_assoc. Qed.

  Definition mk (t r s : nat) : booking := {| b_task := t; b_res := r; b_slot := s |}.

  Definition block (t s : nat) : list booking := rev (map (fun r => mk t r s) (t_team (task_of p t))).

  Lemma in_blocks t ss b :
    In b (concat (map (block t) ss)) <-> exists r s, In r (t_team (task_of p t)) /\ In s ss /\ b = mk t r s.
  Proof.
    rewrite in_concat. split.
    - intros (l & Hl & Hb). apply in_map_iff in Hl as (s & <- & Hs). apply in_rev, in_map_iff in Hb as (r & <- & Hr).
      now exists r, s.
    - intros (r & s & Hr & Hs & ->). exists (block t s). split; [now apply in_map|]. unfold block. rewrite <- in_rev. now apply (in_map (fun r => mk t r s)).
  Qed.

  Lemma blocks_task t ss b : In b (concat (map (block t) ss)) -> b_task b = t.
  Proof. intros H. now apply in_blocks in H as (r & s & _ & _ & ->). Qed.

  Lemma book_team_spec t s : forall team st st',
    book_team p st t s team = Some st' ->
    bookings st' = rev (map (fun r => mk t r s) team) ++ bookings st /\ placed st' = placed st.
  Proof.
    induction team as [|r tl IH]; intros st st' H; cbn in H.
    - injection H as <-. split; reflexivity.
    - destruct (can_book p st t r s); [|discriminate].
      destruct (IH _ _ H) as [H1 H2]. cbn [add bookings placed] in *.
      split; [|exact H2]. rewrite H1. cbn [map rev]. rewrite <- app_assoc. reflexivity.
  Qed.

  Lemma book_team_first_fails t s r tl st :
    book_team p st t s (r :: tl) = None -> can_book p st t r s = true ->
    book_team p (add st t r s) t s tl = None.
  Proof. cbn. intros H E. now rewrite E in H. Qed.

  (* slot x was passed over between st0 and st: at some moment stx on the way, which held beyond st0 only earlier slots
     of the task itself, the team could not be booked in x *)
  Definition Skipped (st0 st : state) (t x : nat) : Prop :=
    exists stx, bext st0 stx /\ bext stx st /\
      (forall y, In y (bookings stx) -> In y (bookings st0) \/ (b_task y = t /\ b_slot y < x)) /\
      book_team p stx t x (t_team (task_of p t)) = None.

  Lemma Skipped_later st0 st st' t x : bext st st' -> Skipped st0 st t x -> Skipped st0 st' t x.
  Proof.
    intros He (stx & X1 & X2 & X3). exists stx. split; [exact X1|]. split; [now apply (bext_trans _ st)|exact X3].
  Qed.

  Lemma Skipped_here st st' t x : book_team p st t x (t_team (task_of p t)) = None -> bext st st' -> Skipped st st' t x.
  Proof. intros E He. exists st. split; [apply bext_refl|]. split; [exact He|]. split; [now left|exact E]. Qed.

  (* a block of the task in an earlier slot may lie between st0 and the moment of the refusal *)
  Lemma Skipped_after_block st0 st1 st t s x :
    bookings st1 = block t s ++ bookings st0 -> s < x -> Skipped st1 st t x -> Skipped st0 st t x.
  Proof.
    intros B1 Hs (stx & X1 & X2 & X3 & X4). exists stx.
    split; [apply (bext_trans _ st1); [now exists (block t s)|exact X1]|]. split; [exact X2|]. split; [|exact X4].
    intros b Hb. destruct (X3 b Hb) as [Q|Q]; [|now right]. rewrite B1 in Q. apply in_app_or in Q as [Q|Q]; [|now left].
    apply in_rev, in_map_iff in Q as (r & <- & _). right. now split.
  Qed.

  Lemma leaf_dates_same_placed {st st'} : placed st' = placed st -> leaf_dates st' = leaf_dates st.
  Proof. intros E. unfold leaf_dates. now rewrite E. Qed.

  (* the boundary at which a walk that could go up to h stopped *)
  Definition stop (d : option (nat * nat)) (h : nat) : nat := match d with Some (_, e) => e | None => h end.

  (* What a walk of task t from slot s towards boundary h, from st to st' with result d, has done.  It booked whole-team
     blocks for the slots ss (latest first) and nothing else; every slot below the boundary where it stopped is in ss or
     was skipped; if it succeeded it took max 1 need slots, ends after the last of them and, unless the start was fixed
     before, starts at the first. *)
  Set Implicit Arguments.
  Record Walked (t s h need : nat) (first : option nat) (st st' : state) (d : option (nat * nat)) (ss : list nat)
    : Prop := {
    w_bookings : bookings st' = concat (map (block t) ss) ++ bookings st;
    w_placed : placed st' = placed st;
    w_stop : s <= stop d h <= h;
    w_slots : forall x, In x ss -> s <= x < stop d h;
    w_fit : forall x, s <= x < stop d h -> In x ss \/ Skipped st st' t x;
    w_count : forall f e, d = Some (f, e) -> length ss = Nat.max 1 need;
    w_last : forall f e, d = Some (f, e) -> In (e - 1) ss;
    w_first : forall f e, d = Some (f, e) ->
              match first with Some f0 => f = f0 | None => In f ss /\ forall x, In x ss -> f <= x end
  }.
  Unset Implicit Arguments.

  Lemma walk_char t : forall fuel s need first st st' d,
    walk p t fuel s need first st = (st', d) -> exists ss, Walked t s (s + fuel) need first st st' d ss.
  Proof.
    induction fuel as [|fuel IH]; intros s need first st st' d H.
    { injection H as <- <-. exists []. constructor; cbn [stop]; try discriminate; try reflexivity; [lia|intros x []|lia]. }
    rewrite walk_S in H. destruct (book_team p st t s (t_team (task_of p t))) as [st1|] eqn:E.
    - apply book_team_spec in E as [B1 B2]. fold (block t s) in B1.
      destruct (Nat.leb_spec need 1) as [Hneed|Hneed].
      { (* done: this slot is the last *)
        injection H as <- <-. exists [s]. constructor; cbn [map concat stop].
        - now rewrite app_nil_r.
        - exact B2.
        - lia.
        - intros x [<-|[]]. lia.
        - intros x Hx. left. left. lia.
        - intros f e _. cbn [length]. lia.
        - intros f e [= <- <-]. left. lia.
        - intros f e [= <- <-]. destruct first; [reflexivity|]. split; [now left|]. intros x [<-|[]]. lia. }
      apply IH in H as [ss W]. replace (S s + fuel) with (s + S fuel) in * by lia.
      exists (ss ++ [s]). constructor.
      + rewrite (w_bookings W), B1, map_app, concat_app. cbn. now rewrite app_nil_r, <- app_assoc.
      + rewrite <- B2. apply W.
      + pose proof (w_stop W). lia.
      + intros x Hx. apply in_app_or in Hx as [Hx|[<-|[]]]; [apply W in Hx|pose proof (w_stop W)]; lia.
      + intros x Hx. destruct (Nat.eq_dec x s) as [->|Hne]; [left; apply in_or_app; right; now left|].
        destruct (w_fit W (x:=x) ltac:(lia)) as [L|L]; [left; apply in_or_app; now left|right].
        apply (Skipped_after_block st st1 st' t s); [exact B1|lia|exact L].
      + intros f e Hd. rewrite app_length, (w_count W Hd). cbn [length]. lia.
      + intros f e Hd. apply in_or_app. left. now apply (w_last W Hd).
      + intros f e Hd. pose proof (w_first W Hd) as ->.
        destruct first; [reflexivity|]. split; [apply in_or_app; right; now left|].
        intros x Hx. apply in_app_or in Hx as [Hx|[<-|[]]]; [apply W in Hx|]; lia.
    - apply IH in H as [ss W]. replace (S s + fuel) with (s + S fuel) in * by lia.
      exists ss. constructor; try apply W.
      + pose proof (w_stop W). lia.
      + intros x Hx. apply (w_slots W) in Hx. lia.
      + intros x Hx. destruct (Nat.eq_dec x s) as [->|Hne]; [|apply (w_fit W); lia].
        right. apply Skipped_here; [exact E|eexists; apply W].
  Qed.

  (* a successful walk of a task of which st held nothing: all the task's bookings lie between its dates, and they are
     need blocks *)
  Lemma Walked_own t s h need st st' f e ss :
    Walked t s h need None st st' (Some (f, e)) ss -> (forall x, In x (bookings st) -> b_task x <> t) ->
    forall x, In x (bookings st') -> b_task x = t -> f <= b_slot x < e.
  Proof.
    intros W Hfresh x Hx Hxt. rewrite (w_bookings W) in Hx.
    apply in_app_or in Hx as [Hx|Hx]; [|now destruct (Hfresh x Hx)].
    apply in_blocks in Hx as (r & y & _ & Hy & ->). cbn.
    split; [now apply (w_first W eq_refl)|now apply (w_slots W)].
  Qed.

  Lemma Walked_blocks t s h need first st st' f e ss :
    Walked t s h need first st st' (Some (f, e)) ss -> (forall x, In x (bookings st) -> b_task x <> t) -> need <> 0 ->
    length ss = need /\ filter (fun x => Nat.eqb (b_task x) t) (bookings st') = concat (map (block t) ss).
  Proof.
    intros W Hfresh Hn. split; [rewrite (w_count W eq_refl); lia|].
    rewrite (w_bookings W), filter_app, (filter_none _ (bookings st)), app_nil_r; [apply filter_all|].
    - intros x Hx. apply Nat.eqb_eq. now apply blocks_task in Hx.
    - intros x Hx. apply Nat.eqb_neq. now apply Hfresh.
  Qed.
End Walk.
Arguments walk_char {p t fuel s need first st st' d}.
Arguments Walked_own {p t s h need st st' f e ss}.
Arguments Walked_blocks {p t s h need first st st' f e ss}.
