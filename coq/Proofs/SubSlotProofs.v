(* Second granularity.  First what both models (Model/SubSlot.v, Model/SubSlotTeam.v) share, without a project: a task's
   entries in a cell (tent), the bound of a task (Bound_by), limits, why a cell could not be booked (Blocked_by), what a
   walk writes (write), one task of a run (task_step) and what holds of every state a run can reach (reachable_sound:
   C02, C05, C11, a property of cells).  Then the single-resource model: wf, the notions its end results are stated with
   (Booked, SBound), and that its run is reachable, for every project (C02, C05). *)
From Coq Require Import QArith Qround List Lia Lqa.
Require Import SP.Model.Ledger SP.Proofs.LedgerProofs SP.Model.SubSlot SP.Proofs.Generic SP.Proofs.GenericInst.
Import ListNotations.

Definition tent (t : nat) (c : cell) : list (nat * Q) := filter (fun x => Nat.eqb (fst x) t) (entries c).

Lemma tent_offset G t c o : tent t (step G c (Offset o)) = tent t c.
Proof. unfold tent. cbn [step]. destruct (Qlt_le_dec (used c) o); reflexivity. Qed.

Lemma tent_offset_if G t first off c : tent t (offset_if G first off c) = tent t c.
Proof. unfold tent. now rewrite offset_if_entries. Qed.

Lemma tent_finish_other G t u c need : u <> t -> tent u (step G c (Finish t need)) = tent u c.
Proof.
  intros Hne. unfold tent. destruct (finish_char G t need c) as [->|(pre & b & post & E & ->)]; [reflexivity|].
  rewrite E, !filter_app. cbn [filter fst]. destruct (Nat.eqb_spec t u); [congruence|reflexivity].
Qed.

Lemma tent_app t c c' x : entries c' = entries c ++ [(t, x)] -> tent t c' = tent t c ++ [(t, x)].
Proof. intros E. unfold tent. rewrite E, filter_app. cbn [filter fst]. now rewrite Nat.eqb_refl. Qed.

Lemma tent_app_other t u c c' x : entries c' = entries c ++ [(t, x)] -> u <> t -> tent u c' = tent u c.
Proof. intros E Hne. unfold tent. rewrite E, filter_app. cbn [filter fst]. destruct (Nat.eqb_spec t u); [congruence|apply app_nil_r]. Qed.

Lemma tent_book_other G t u c cap : u <> t -> tent u (step G c (Book t cap)) = tent u c.
Proof. intros Hne. destruct (book_spec G t c cap) as [[-> _]|(E & _)]; [reflexivity|exact (tent_app_other t u c _ _ E Hne)]. Qed.

Lemma tent_nonempty u c : tent u c <> [] <-> In u (map fst (entries c)).
Proof.
  unfold tent. induction (entries c) as [|[t x] l IH]; cbn [filter map fst In]; [tauto|].
  destruct (Nat.eqb_spec t u) as [->|Hne]; [split; [now left|discriminate]|]. rewrite IH. tauto.
Qed.

Lemma tol_avail_pos : 0 < tol_avail.
Proof. reflexivity. Qed.
Lemma tol_done_pos : 0 < tol_done.
Proof. reflexivity. Qed.
Definition tol_avail_nonneg : 0 <= tol_avail := Qlt_le_weak _ _ tol_avail_pos.
Definition tol_done_nonneg : 0 <= tol_done := Qlt_le_weak _ _ tol_done_pos.

(* start' of swalk and twalk; g: slot length *)
Definition start_at (g : Z) (off : Q) (start : option Z) (slot : nat) : Z :=
  match start with Some s => s | None => (Z.of_nat slot * g + Qfloor off)%Z end.

(* the offset of a bound b in its slot, off of swalk and twalk *)
Lemma off_bounds g b : (0 < g)%Z ->
  0 <= inject_Z (b mod g) /\ inject_Z (b mod g) < inject_Z g /\ tol_avail < inject_Z g - inject_Z (b mod g).
Proof.
  intros Hg. pose proof (Z.mod_pos_bound b g Hg).
  assert (1 <= inject_Z g - inject_Z (b mod g)).
  { unfold Qminus. rewrite <- inject_Z_opp, <- inject_Z_plus. change 1 with (inject_Z 1). rewrite <- Zle_Qle. lia. }
  split; [change 0 with (inject_Z 0); rewrite <- Zle_Qle; lia|]. unfold tol_avail. split; lra.
Qed.

(* a start in slot s at the offset of the bound b is not before b, if s is not before the slot of b *)
Lemma bound_le_start g b s : (0 < g)%Z -> (0 <= b)%Z -> (Z.to_nat (b / g) <= s)%nat ->
  (b <= start_at g (inject_Z (b mod g)) None s)%Z.
Proof.
  intros Hg Hb Hs. cbn [start_at]. rewrite Qfloor_Z. pose proof (Z.mod_pos_bound b g Hg).
  assert (0 <= b / g)%Z by (apply Z.div_pos; lia). rewrite (Z.div_mod b g) at 1 by lia. nia.
Qed.

Fixpoint sumq (l : list Q) : Q := match l with [] => 0 | x :: tl => x + sumq tl end.

Lemma inject_Z_pos z : (0 < z)%Z -> 0 < inject_Z z.
Proof. intros H. change 0 with (inject_Z 0). now rewrite <- Zlt_Qlt. Qed.

Lemma round_lower q (a : Z) : inject_Z a <= q -> (a <= round_half_even q)%Z.
Proof.
  intros Ha. unfold round_half_even.
  assert (La : (a <= Qfloor q)%Z) by (rewrite <- (Qfloor_Z a); now apply Qfloor_resp_le).
  destruct (Qcompare (q - inject_Z (Qfloor q)) (1 # 2)); [destruct (Z.even (Qfloor q))| |]; lia.
Qed.

(* the end of a walk inside its last slot is round_half_even (u + needed), u the seconds used before the booking: not
   before the beginning of the slot, and not before the offset if u includes it *)
Lemma round_end off u needed : 0 <= u -> 0 <= needed ->
  (0 <= round_half_even (u + needed))%Z /\ (off <= u -> (Qfloor off <= round_half_even (u + needed))%Z).
Proof.
  intros Hu Hn. split; [apply (round_lower _ 0); change (inject_Z 0) with 0; lra|].
  intros Ho. apply round_lower. pose proof (Qfloor_le off). lra.
Qed.

(* The bound of a task, over functions so that it serves both models; dates t: the dates of task t, leaf or container,
   in the state at hand. *)
Section Bound.
  Variables (dates : nat -> option (Z * Z)) (deps : list sdep) (lb : Z) (pin : option Z).

  Definition Bound_by (b : Z) : Prop :=
    (forall s, pin = Some s -> b = s) /\
    (pin = None ->
       (lb <= b)%Z /\
       forall d, In d deps ->
         exists s' e', dates (sd_task d) = Some (s', e') /\ ((if sd_onstart d then s' else e') + sd_gap d <= b)%Z).

  (* sbound and tbound, for a ready task: time is sdep_time p st or tdep_time p st *)
  Lemma Bound_by_spec (time : sdep -> option Z) :
    (forall d, time d = match dates (sd_task d) with
                        | Some (s, e) => Some ((if sd_onstart d then s else e) + sd_gap d)%Z | None => None end) ->
    forallb (fun d => match dates (sd_task d) with Some _ => true | None => false end) deps = true ->
    Bound_by (match pin with
              | Some s => s
              | None => fold_left (fun acc d => match time d with Some x => Z.max acc x | None => acc end) deps lb
              end).
  Proof.
    intros Ht Hr. split; [now intros s ->|]. intros ->. destruct (fold_max_Z time deps lb) as [A B]. split; [exact A|].
    intros d Hd. rewrite forallb_forall in Hr. specialize (Hr d Hd). specialize (B d). rewrite Ht in B.
    destruct (dates (sd_task d)) as [[s' e']|]; [|discriminate]. exists s', e'. split; [reflexivity|]. now apply B.
  Qed.

  Lemma Bound_by_pin s : pin = Some s -> Bound_by s.
  Proof. intros E. split; [intros s' Hs'|]; congruence. Qed.

  (* a start at or after the bound, for a milestone at it: what C04 says of the start *)
  Lemma Bound_by_le b f (mile : bool) : Bound_by b -> (b <= f)%Z -> (mile = true -> f = b) ->
    (pin = None ->
       (lb <= f)%Z /\
       forall d, In d deps ->
         exists s' e', dates (sd_task d) = Some (s', e') /\ ((if sd_onstart d then s' else e') + sd_gap d <= f)%Z) /\
    (forall s, pin = Some s -> (s <= f)%Z /\ (mile = true -> f = s)).
  Proof.
    intros [Hp Hn] Hf Hm. split.
    - intros E. destruct (Hn E) as [A B]. split; [lia|]. intros d Hd. destruct (B d Hd) as (s' & e' & D1 & D2).
      exists s', e'. split; [exact D1|lia].
    - intros s E. rewrite <- (Hp s E). split; [exact Hf|exact Hm].
  Qed.
End Bound.
Arguments Bound_by_le {dates deps lb pin b f mile}.
Arguments Bound_by_spec {dates deps lb pin} time.

Lemma Bound_by_mono dates dates' deps lb pin b : (forall t d, dates t = Some d -> dates' t = Some d) ->
  Bound_by dates deps lb pin b -> Bound_by dates' deps lb pin b.
Proof.
  intros H [Hp Hn]. split; [exact Hp|]. intros E. destruct (Hn E) as [A B]. split; [exact A|].
  intros d Hd. destruct (B d Hd) as (s' & e' & D1 & D2). exists s', e'. split; [now apply H|exact D2].
Qed.

(* Both second-granularity models count booking events against limits in the same way: scounts, susage, slimits_of and
   the test of swalk, tcounts, tusage, tlimits_of and tlimits_ok are these definitions at the model's tables (rl r: the
   limits of resource r, tl t: those of task t, lim: the table of limits), by conversion. *)
Section Limits.
  Variables (rl tl : nat -> list nat) (lim : nat -> slimit).

  Definition only_ok (r l : nat) : bool := match sl_only (lim l) with None => true | Some r' => Nat.eqb r' r end.

  Definition counts_by (l : nat) (b : nat * nat * nat) : bool :=
    let '(t, r, _) := b in existsb (Nat.eqb l) (rl r) || (existsb (Nat.eqb l) (tl t) && only_ok r l).

  Definition usage_by (ev : list (nat * nat * nat)) (l : nat) (k : Z) : nat :=
    length (filter (fun b => counts_by l b && Z.eqb (sl_period (lim l) (snd b)) k) ev).

  Definition limits_of_by (t r : nat) : list nat := rl r ++ filter (only_ok r) (tl t).

  Definition limits_ok_by (ev : list (nat * nat * nat)) (t r s : nat) : bool :=
    forallb (fun l => (usage_by ev l (sl_period (lim l) s) <? sl_value (lim l))%nat) (limits_of_by t r).

  Definition Within (ev : list (nat * nat * nat)) : Prop := forall l k, (usage_by ev l k <= sl_value (lim l))%nat.

  Lemma counts_limits_of l t r s : counts_by l (t, r, s) = true -> In l (limits_of_by t r).
  Proof.
    unfold counts_by, limits_of_by. intros H. apply in_or_app. apply orb_true_iff in H as [H|H].
    - left. now apply existsb_eqb_in.
    - right. apply andb_true_iff in H as [H1 H2]. apply filter_In. split; [now apply existsb_eqb_in|exact H2].
  Qed.

  Lemma Within_book ev t r s : Within ev -> limits_ok_by ev t r s = true -> Within ((t, r, s) :: ev).
  Proof.
    intros Hi Hok l k. unfold usage_by. cbn [filter].
    destruct (counts_by l (t, r, s)) eqn:Ec; cbn [andb]; [|apply Hi].
    cbn [snd]. destruct (Z.eqb_spec (sl_period (lim l) s) k) as [<-|Hne]; [|apply Hi].
    apply counts_limits_of in Ec. unfold limits_ok_by in Hok. rewrite forallb_forall in Hok. specialize (Hok l Ec).
    apply Nat.ltb_lt in Hok. cbn [length]. unfold usage_by in Hok. lia.
  Qed.

  (* pre: the tentative events of a team gate, in front of both lists *)
  Lemma usage_by_grows pre new ev l k : (usage_by (pre ++ ev) l k <= usage_by (pre ++ new ++ ev) l k)%nat.
  Proof. unfold usage_by. rewrite !filter_app, !app_length. lia. Qed.

  Lemma limits_full ev t r s : limits_ok_by ev t r s = false ->
    exists l, In l (limits_of_by t r) /\ (sl_value (lim l) <= usage_by ev l (sl_period (lim l) s))%nat.
  Proof. intros H. apply forallb_false in H as (l & Hl & H). exists l. split; [exact Hl|]. now apply Nat.ltb_ge. Qed.
End Limits.
Arguments Within_book {rl tl lim ev} t r s.
Arguments usage_by_grows {rl tl lim} pre new ev l k.
Arguments limits_full {rl tl lim ev t r s}.

Lemma cells_set_same st r s c : cells (set_cell st r s c) r s = c.
Proof. cbn. now rewrite !Nat.eqb_refl. Qed.
Lemma cells_set_other st r s c r' s' : (r' <> r \/ s' <> s) -> cells (set_cell st r s c) r' s' = cells st r' s'.
Proof.
  intros H. cbn. destruct (Nat.eqb_spec r' r); [|reflexivity]. destruct (Nat.eqb_spec s' s); [|reflexivity].
  destruct H; contradiction.
Qed.

Lemma cells_set_all (P : nat -> nat -> cell -> Prop) st r s c : P r s c -> (forall r' s', P r' s' (cells st r' s')) ->
  forall r' s', P r' s' (cells (set_cell st r s c) r' s').
Proof. intros Hc Hst r' s'. cbn. destruct (Nat.eqb_spec r' r) as [->|]; [destruct (Nat.eqb_spec s' s) as [->|]|]; cbn; auto. Qed.

Lemma cells_note st t r s : cells (note_booking st t r s) = cells st.
Proof. reflexivity. Qed.

Definition dates_kept (st st' : sstate) : Prop := forall u d, sleaf_dates st u = Some d -> sleaf_dates st' u = Some d.

Lemma sleaf_dates_place_same st t d : sleaf_dates (splace st t d) t = Some d.
Proof. unfold sleaf_dates, splace; cbn. now rewrite Nat.eqb_refl. Qed.
Lemma sleaf_dates_place_other st t u d : u <> t -> sleaf_dates (splace st t d) u = sleaf_dates st u.
Proof. intros H. unfold sleaf_dates, splace; cbn. destruct (Nat.eqb_spec u t); [contradiction|reflexivity]. Qed.

Lemma sspan_stable st st' ls d : dates_kept st st' -> sspan st ls = Some d -> sspan st' ls = Some d.
Proof. intros He. rewrite !sspan_eq. apply span_by_mono. intros t d' _. apply He. Qed.

(* C10: a container has dates iff every leaf below it has; then earliest start / latest end *)
Lemma sspan_spec st : forall ls, ls <> [] ->
  (forall s e, sspan st ls = Some (s, e) ->
     (forall t, In t ls -> exists d, sleaf_dates st t = Some d) /\
     (forall t s' e', In t ls -> sleaf_dates st t = Some (s', e') -> (s <= s')%Z /\ (e' <= e)%Z) /\
     (exists t s' e', In t ls /\ sleaf_dates st t = Some (s', e') /\ s' = s) /\
     (exists t s' e', In t ls /\ sleaf_dates st t = Some (s', e') /\ e' = e)) /\
  (sspan st ls = None -> exists t, In t ls /\ sleaf_dates st t = None).
Proof. intros ls. rewrite sspan_eq. apply span_dates_Z. Qed.

Lemma sleaf_dates_placed {st st'} : splaced st' = splaced st -> sleaf_dates st' = sleaf_dates st.
Proof. intros E. unfold sleaf_dates. now rewrite E. Qed.

(* every ledger entry has its booking event: with Within, what C05 needs of a state (limit_cells) *)
Definition ECov (st : sstate) : Prop := forall t r s, tent t (cells st r s) <> [] -> In (t, r, s) (sbooked st).

(* C05 in terms of the ledger: the (task, resource, slot) cells that hold work counted by a limit in one period are at
   most the limit's value many, because each has its booking event *)
Lemma limit_cells {rl tl lim st} l k (L : list (nat * nat * nat)) : Within rl tl lim (sbooked st) -> ECov st -> NoDup L ->
  (forall b, In b L -> tent (fst (fst b)) (cells st (snd (fst b)) (snd b)) <> [] /\
                      counts_by rl tl lim l b = true /\ sl_period (lim l) (snd b) = k) ->
  (length L <= sl_value (lim l))%nat.
Proof.
  intros Hw He Hnd HL. eapply Nat.le_trans; [|apply (Hw l k)]. unfold usage_by.
  apply NoDup_incl_length; [exact Hnd|]. intros b Hb. destruct (HL b Hb) as (H1 & H2 & H3).
  apply filter_In. split; [destruct b as [[t r] s]; now apply He|]. now rewrite H2, H3, Z.eqb_refl.
Qed.

(* what write reads of a project: the limits, the working slots, the last slot of the horizon *)
Record tables := {
  res_limits : nat -> list nat;
  task_limits : nat -> list nat;
  limit_tab : nat -> slimit;
  works : nat -> nat -> bool;
  last_slot : nat
}.

(* C11: nothing is written, noted or held after slot U *)
Record InHorizon (U : nat) (st : sstate) : Prop := {
  ih_touched : forall r s, In (r, s) (stouched st) -> (s <= U)%nat;
  ih_events : forall t r s, In (t, r, s) (sbooked st) -> (s <= U)%nat;
  ih_cells : forall r s, (U < s)%nat -> cells st r s = empty
}.

(* what the walk analyses of both models need of a state: reachable_cells, below *)
Definition CellsOk (G : Q) (st : sstate) : Prop :=
  forall r s, Inv G (cells st r s) /\ Forall (fun e => 0 < snd e) (entries (cells st r s)).

(* Why task t could not book the cell (r, s) (C08); ev: the tentative events of a team gate, counted in front of those
   of the state.  Reason (SubSlotIdle.v) and MemberBlocked (SubSlotTeamIdle.v) are this at the tables of their model. *)
Definition Blocked_by (T : tables) (G : Q) (st : sstate) (t r s : nat) (ev : list (nat * nat * nat)) : Prop :=
  works T r s = false \/
  G - used (cells st r s) <= tol_avail \/
  exists l, In l (limits_of_by (res_limits T) (task_limits T) (limit_tab T) t r) /\
            (sl_value (limit_tab T l) <= usage_by (res_limits T) (task_limits T) (limit_tab T) (ev ++ sbooked st) l (sl_period (limit_tab T l) s))%nat.

(* The test that swalk and book_members make on a cell after the offset, c1 := offset_if G first off c0, limits
   included.  True: the cell is passed over, and it is blocked. *)
Lemma cell_passed T G st t r s first off : CellsOk G st -> 0 <= off /\ off <= G ->
  let c1 := offset_if G first off (cells st r s) in
  Qle_bool (G - used c1) tol_avail || Nat.eqb (length (entries (step G c1 (Book t None)))) (length (entries c1))
  || negb (limits_ok_by (res_limits T) (task_limits T) (limit_tab T) (sbooked st) t r s) = true ->
  Blocked_by T G (set_cell st r s c1) t r s [].
Proof.
  intros Hc Ho c1 H. right. apply orb_true_iff in H as [H|H].
  - left. rewrite cells_set_same. apply (book_test_true G tol_avail t c1 None tol_avail_nonneg); [|exact H].
    apply (not_refused G); [apply offset_if_inv; [exact Ho|apply Hc]|unfold c1; rewrite offset_if_entries; apply Hc].
  - right. apply negb_true_iff in H. exact (limits_full H).
Qed.

(* False, without a cap: what is left of the cell is booked *)
Lemma cell_booked G t first off c0 : Inv G c0 -> 0 <= off /\ off <= G ->
  let c1 := offset_if G first off c0 in let c2 := step G c1 (Book t None) in let x := avail G c1 in
  Qle_bool (G - used c1) tol_avail || Nat.eqb (length (entries c2)) (length (entries c1)) = false ->
  0 < x /\ x <= G /\ x == G - used c1 /\ entries c2 = entries c0 ++ [(t, x)] /\ used c2 = used c1 + x /\ Inv G c2.
Proof.
  intros Hi Ho c1 c2 x H. assert (I1 : Inv G c1) by now apply offset_if_inv. apply orb_false_iff in H as [_ H].
  destruct (book_test_false G t c1 None ltac:(discriminate) H) as (Hx & Hav & E & Hu).
  split; [exact Hx|]. split; [destruct I1; unfold x; lra|]. split; [exact Hav|]. split; [|split; [exact Hu|now apply step_inv]].
  unfold c2. rewrite E. unfold c1. now rewrite offset_if_entries.
Qed.

Section Writes.
  Variable T : tables.
  Variable ok : cell -> Prop.                  (* a property of cells that every write keeps *)
  Local Notation U := (last_slot T).

  (* One write of a walk of task t, in both models.  write_keep: the offset in a cell passed over, the release of a
     team member's last slot; write_book: a booking that is kept (in swalk together with the release, if the slot is
     the last). *)
  Inductive write (t : nat) (st : sstate) : sstate -> Prop :=
  | write_keep r s c
      (Hs : (s <= U)%nat)
      (Howners : map fst (entries c) = map fst (entries (cells st r s)))
      (Hothers : forall u, u <> t -> tent u c = tent u (cells st r s))
      (Hok : ok (cells st r s) -> ok c) :
      write t st (set_cell st r s c)
  | write_book r s c
      (Hs : (s <= U)%nat)
      (Hothers : forall u, u <> t -> tent u c = tent u (cells st r s))
      (Hok : ok (cells st r s) -> ok c)
      (Hwork : works T r s = true)
      (Hlim : limits_ok_by (res_limits T) (task_limits T) (limit_tab T) (sbooked st) t r s = true) :
      write t st (note_booking (set_cell st r s c) t r s).

  Lemma write_ok {t st st'} : write t st st' -> (forall r s, ok (cells st r s)) -> forall r s, ok (cells st' r s).
  Proof.
    intros W Hi. destruct W; exact (cells_set_all (fun _ _ => ok) st r s c (Hok (Hi r s)) Hi).
  Qed.

  Definition Working (st : sstate) : Prop := forall r s, entries (cells st r s) <> [] -> works T r s = true.

  Lemma write_working {t st st'} : write t st st' -> Working st -> Working st'.
  Proof.
    intros W Hi. destruct W; refine (cells_set_all (fun r s c => entries c <> [] -> works T r s = true) st r s c _ Hi); [|now intros _].
    intros Hne. apply Hi. intros E. apply Hne, (map_eq_nil fst). now rewrite Howners, E.
  Qed.

  Definition Limits (st : sstate) : Prop := Within (res_limits T) (task_limits T) (limit_tab T) (sbooked st).

  Lemma write_limits {t st st'} : write t st st' -> Limits st -> Limits st'.
  Proof. intros [] Hi; [exact Hi|]. exact (Within_book t r s Hi Hlim). Qed.

  Lemma write_ecov {t st st'} : write t st st' -> ECov st -> ECov st'.
  Proof.
    intros W He u r' s'. revert u. destruct W.
    - apply (cells_set_all (fun r' s' c' => forall u, tent u c' <> [] -> In (u, r', s') (sbooked st))); [|intros r1 s1 u; apply He].
      intros u Hu. apply He. now rewrite tent_nonempty, <- Howners, <- tent_nonempty.
    - apply (cells_set_all (fun r' s' c' => forall u, tent u c' <> [] -> In (u, r', s') ((t, r, s) :: sbooked st))); [|intros r1 s1 u Hu; right; now apply He].
      intros u Hu. destruct (Nat.eq_dec u t) as [->|Hne]; [now left|]. right. apply He. now rewrite <- (Hothers u Hne).
  Qed.

  Lemma write_horizon {t st st'} : write t st st' -> InHorizon U st -> InHorizon U st'.
  Proof.
    assert (Hset : forall st r s c, (s <= U)%nat -> InHorizon U st -> InHorizon U (set_cell st r s c)).
    { intros st0 r s c Hs [A B C]. constructor; [|exact B|].
      - intros r' s' [[= <- <-]|Hin]; [exact Hs|now apply (A r')].
      - apply (cells_set_all (fun _ s' c' => (U < s')%nat -> c' = empty)); [lia|exact C]. }
    intros [] Hi; [now apply Hset|]. destruct (Hset st r s c Hs Hi) as [A B C]. constructor; [exact A| |exact C].
    intros t' r' s' [[= <- <- <-]|Hin]; [exact Hs|now apply (B t' r')].
  Qed.

  (* what the writes of task t leave alone: the entries of the other tasks, and all dates *)
  Definition wframe (t : nat) (st st' : sstate) : Prop :=
    (forall r s u, u <> t -> tent u (cells st' r s) = tent u (cells st r s)) /\ splaced st' = splaced st.

  Lemma write_frame {t st st'} : write t st st' -> wframe t st st'.
  Proof.
    intros W. split; [|now destruct W].
    destruct W; exact (cells_set_all (fun r' s' c' => forall u, u <> t -> tent u c' = tent u (cells st r' s')) st r s c Hothers (fun _ _ _ _ => eq_refl)).
  Qed.

  Inductive writes (t : nat) (st : sstate) : sstate -> Prop :=
  | writes_none : writes t st st
  | writes_more st1 st2 : writes t st st1 -> write t st1 st2 -> writes t st st2.

  Lemma writes_frame {t st st'} : writes t st st' -> wframe t st st'.
  Proof.
    induction 1 as [|st1 st2 _ [A B] W]; [now split|]. destruct (write_frame W) as [A' B']. split; [|congruence].
    intros r s u Hu. now rewrite A', A.
  Qed.

  Inductive reachable : sstate -> Prop :=
  | reachable_init : reachable sinit
  | reachable_place st t d : reachable st -> reachable (splace st t d)
  | reachable_write t st st' : reachable st -> write t st st' -> reachable st'.

  Lemma reachable_writes {t st st'} : writes t st st' -> reachable st -> reachable st'.
  Proof. intros W H. induction W; [exact H|eapply reachable_write; eauto]. Qed.

  (* One task of a run: a walk, perhaps none, and then perhaps its dates.  Both models schedule a task in this way;
     what follows needs no more of them. *)
  Definition task_step (t : nat) (st st' : sstate) : Prop :=
    exists st1, writes t st st1 /\ (st' = st1 \/ exists d, st' = splace st1 t d).

  Lemma task_step_reachable {t st st'} : task_step t st st' -> reachable st -> reachable st'.
  Proof. intros (st1 & W & [->|[d ->]]) H; [|constructor]; exact (reachable_writes W H). Qed.

  Lemma task_step_frame {t st st'} u : task_step t st st' -> u <> t ->
    sleaf_dates st' u = sleaf_dates st u /\ forall r s, tent u (cells st' r s) = tent u (cells st r s).
  Proof.
    intros (st1 & W & E) Hu. destruct (writes_frame W) as [A B].
    assert (Hd : sleaf_dates st1 u = sleaf_dates st u) by now rewrite (sleaf_dates_placed B).
    destruct E as [->|[d ->]]; [|rewrite sleaf_dates_place_other by exact Hu]; (split; [exact Hd|intros; now apply A]).
  Qed.

  (* the hypothesis step_frame of Generic.run_by_placed *)
  Lemma task_step_fresh {t st st'} u : task_step t st st' -> u <> t ->
    sleaf_dates st' u = sleaf_dates st u /\ ((forall r s, tent u (cells st r s) = []) -> forall r s, tent u (cells st' r s) = []).
  Proof. intros H Hu. destruct (task_step_frame u H Hu) as [A B]. split; [exact A|]. intros Hf r s. now rewrite B. Qed.

  Lemma task_step_dates_kept {t st st'} : task_step t st st' -> sleaf_dates st t = None -> dates_kept st st'.
  Proof. intros H Hn u d Hu. rewrite (proj1 (task_step_frame u H ltac:(intros ->; congruence))). exact Hu. Qed.

  (* a task without dates that has them after its walk: the walk ended *)
  Lemma writes_placed {t st st1 d d'} : writes t st st1 -> sleaf_dates st t = None ->
    sleaf_dates (match d with Some d => splace st1 t d | None => st1 end) t = Some d' -> d = Some d'.
  Proof.
    intros W Hn. destruct d; [rewrite sleaf_dates_place_same; congruence|]. rewrite (sleaf_dates_placed (proj2 (writes_frame W))). congruence.
  Qed.

  Record Sound (st : sstate) : Prop := {
    sound_ok : ok empty -> forall r s, ok (cells st r s);
    sound_working : Working st;
    sound_limits : Limits st;
    sound_ecov : ECov st;
    sound_horizon : InHorizon U st
  }.

  Theorem reachable_sound st : reachable st -> Sound st.
  Proof.
    induction 1 as [|st t d _ [A B C D E]|t st st' _ [A B C D E] W].
    - constructor; [auto|intros r s H; now elim H|intros l k; apply Nat.le_0_l|intros t r s H; now elim H|].
      constructor; cbn; intros; try contradiction; reflexivity.
    - constructor; try assumption. destruct E. now constructor.
    - constructor; [intros H0; exact (write_ok W (A H0))|exact (write_working W B)|exact (write_limits W C)|
                    exact (write_ecov W D)|exact (write_horizon W E)].
  Qed.
End Writes.
Arguments write_ok {T ok t st st'}.
Arguments writes_frame {T ok t st st'}.
Arguments reachable_write {T ok t st st'}.
Arguments reachable_writes {T ok t st st'}.
Arguments task_step_reachable {T ok t st st'}.
Arguments task_step_frame {T ok t st st'}.
Arguments task_step_fresh {T ok t st st'}.
Arguments task_step_dates_kept {T ok t st st'}.
Arguments writes_placed {T ok t st st1 d d'}.
Arguments reachable_sound {T ok st}.
Arguments sound_ok {T ok st}.
Arguments sound_working {T ok st}.
Arguments sound_limits {T ok st}.
Arguments sound_ecov {T ok st}.
Arguments sound_horizon {T ok st}.

Lemma reachable_cells {T G} {W : Prop} {st} : (W -> 0 < G) -> W -> reachable T (cell_ok G W) st -> CellsOk G st.
Proof. intros HG Hw H r s. exact (sound_ok (reachable_sound H) (cell_ok_empty G W HG) r s Hw). Qed.

Record wf (p : sproject) : Prop := {
  wf_G : (0 < sp_G p)%Z;
  wf_eff : forall r, 0 < sr_eff (sres_of p r);
  wf_effort : forall t, 0 <= s_effort (stask_of p t);
  wf_work : forall t, s_mile (stask_of p t) = false -> 0 < s_effort (stask_of p t)
}.

Definition G_pos p (Hwf : wf p) : 0 < inject_Z (sp_G p) := inject_Z_pos _ (wf_G p Hwf).

Section SubSlot.
  Variable p : sproject.
  Local Notation G := (inject_Z (sp_G p)).

  Definition SInv (st : sstate) : Prop :=
    (forall r s, Inv G (cells st r s)) /\
    (forall r s, entries (cells st r s) <> [] -> sr_work (sres_of p r) s = true).

  Lemma splace_inv st t d : SInv st -> SInv (splace st t d).
  Proof. intros H. exact H. Qed.

  Lemma sdates_stable st st' t d : dates_kept st st' -> sdates p st t = Some d -> sdates p st' t = Some d.
  Proof. intros He. unfold sdates. destruct (s_leaf (stask_of p t)); [apply He|now apply sspan_stable]. Qed.


  (* bs: the slots that task t booked, with the seconds it kept in each.  C03 (one entry per slot, none elsewhere,
     seconds x efficiency = effort within tol_done) and C11 (s <= sp_upper p) are read off this. *)
  Definition Booked (st : sstate) (t : nat) (f e : Z) (bs : list (nat * Q)) : Prop :=
    let k := stask_of p t in let r := s_res k in
    bs <> [] /\ NoDup (map fst bs) /\
    (forall s x, In (s, x) bs ->
       (s <= sp_upper p)%nat /\
       sr_work (sres_of p r) s = true /\ 0 < x /\ x <= G /\ tent t (cells st r s) = [(t, x)] /\
       (Z.of_nat s * sp_G p <= e)%Z /\ (f < (Z.of_nat s + 1) * sp_G p)%Z) /\
    (forall r' s', (r' <> r \/ ~ In s' (map fst bs)) -> tent t (cells st r' s') = []) /\
    s_effort k - tol_done <= sumq (map snd bs) * sr_eff (sres_of p r) /\
    sumq (map snd bs) * sr_eff (sres_of p r) <= s_effort k.

  Definition SBound (st : sstate) (t : nat) : Z -> Prop :=
    let k := stask_of p t in Bound_by (sdates p st) (s_deps k) (s_lb k) (s_pin k).

  Lemma sbound_Bound st t : sready p st t = true -> SBound st t (sbound p st t).
  Proof. exact (Bound_by_spec (sdep_time p st) (fun _ => eq_refl)). Qed.

  Lemma SBound_stable st st' t b : dates_kept st st' -> SBound st t b -> SBound st' t b.
  Proof. intros He. apply Bound_by_mono. intros u d. now apply sdates_stable. Qed.

  Lemma Booked_stable st st' t f e bs : (forall r s, tent t (cells st' r s) = tent t (cells st r s)) ->
    Booked st t f e bs -> Booked st' t f e bs.
  Proof.
    intros Hc (B1 & B2 & B3 & B4 & B5 & B6). unfold Booked. cbn zeta.
    split; [exact B1|]. split; [exact B2|]. split; [|split; [|split; assumption]].
    - intros s x Hin. destruct (B3 s x Hin) as (A0 & A1 & A2 & A3 & A4 & A5 & A6). rewrite Hc. repeat split; assumption.
    - intros r' s' H. rewrite Hc. now apply B4.
  Qed.
End SubSlot.

Section EveryProject.
  Variable p : sproject.
  Local Notation G := (inject_Z (sp_G p)).

  Definition stables : tables :=
    {| res_limits := fun r => sr_limits (sres_of p r); task_limits := fun t => s_limits (stask_of p t); limit_tab := slim_of p;
       works := fun r s => sr_work (sres_of p r) s; last_slot := sp_upper p |}.
  Definition sok : cell -> Prop := cell_ok G (wf p).
  Local Notation swrites := (writes stables sok).

  Local Opaque step.
  (* swalk performs writes.  The hypothesis done < need holds along the walk - it goes on only below need - and makes
     the last slot release a positive amount, which keeps the entries positive. *)
  Lemma swalk_writes t r e need off st0 : (wf p -> 0 < e /\ 0 <= off /\ off <= G) ->
    forall fuel slot done start st st' d, (slot + fuel <= S (sp_upper p))%nat -> (wf p -> done < need) ->
      swrites t st0 st -> swalk p t r e need off fuel slot done start st = (st', d) -> swrites t st0 st'.
  Proof.
    intros Hnum. induction fuel as [|fuel IH]; intros slot done start st st' d Hf Hd W H; cbn [swalk] in H; [now injection H as <- _|].
    assert (Hs : (slot <= sp_upper p)%nat) by lia. assert (Hn : (S slot + fuel <= S (sp_upper p))%nat) by lia.
    destruct (sr_work (sres_of p r) slot) eqn:Ew; [|eapply IH; eassumption].
    set (c0 := cells st r slot) in *. fold (offset_if G (Qeq_bool done 0) off c0) in H.
    set (c1 := offset_if G (Qeq_bool done 0) off c0) in *.
    assert (T1 : forall u, tent u c1 = tent u c0) by (intros; apply tent_offset_if).
    assert (E1 : entries c1 = entries c0) by apply offset_if_entries.
    assert (Hc1 : sok c0 -> sok c1) by (apply cell_ok_offset; intros Hwf; apply (Hnum Hwf)).
    assert (Hbook : forall c, (forall u, u <> t -> tent u c = tent u c0) -> (sok c0 -> sok c) ->
              forallb (fun l => slimit_ok p st l slot) (slimits_of p t r) = true ->
              swrites t st0 (note_booking (set_cell st r slot c) t r slot)).
    { intros c Hc Hk El. eapply writes_more; [exact W|]. now apply (write_book stables). }
    destruct (Qle_bool (G - used c1) tol_avail || _) eqn:Et; cbn [orb] in H.
    { eapply IH; [exact Hn|exact Hd| |exact H]. eapply writes_more; [exact W|]. apply (write_keep stables); auto. now rewrite E1. }
    destruct (forallb (fun l => slimit_ok p st l slot) (slimits_of p t r)) eqn:El; cbn [negb] in H.
    2:{ eapply IH; [exact Hn|exact Hd| |exact H]. eapply writes_more; [exact W|]. apply (write_keep stables); auto. now rewrite E1. }
    set (c2 := step G c1 (Book t None)) in *.
    assert (Hc2 : sok c0 -> sok c2) by (intros Hc; apply cell_ok_book; [intros _ m; discriminate|now apply Hc1]).
    destruct (Qle_bool (need - tol_done) (done + (G - used c1) * e)) eqn:Ef.
    - injection H as <- _. apply Hbook; [| |reflexivity].
      + intros u Hu. unfold c2. now rewrite tent_finish_other, tent_book_other.
      + intros Hc. apply cell_ok_finish; [|now apply Hc2]. intros Hwf. destruct (Hnum Hwf) as (He & _). specialize (Hd Hwf).
        exact (needed_pos _ _ _ _ He Hd (G_pos p Hwf)).
    - eapply IH; [exact Hn| | |exact H].
      + intros _. pose proof (Qle_bool_false _ _ Ef). pose proof tol_done_pos. lra.
      + apply Hbook; [|exact Hc2|reflexivity]. intros u Hu. unfold c2. now rewrite tent_book_other.
  Qed.
  Local Transparent step.

  Lemma sschedule_task_step st t : task_step stables sok t st (sschedule_task p st t).
  Proof.
    unfold sschedule_task. cbn zeta. destruct (Z.ltb_spec (sbound p st t) 0) as [|Hb]; cbn [orb]; [exists st; split; [constructor|now left]|].
    destruct (Z.ltb_spec (Z.of_nat (sp_upper p)) (sbound p st t / sp_G p)); [exists st; split; [constructor|now left]|].
    destruct (s_mile (stask_of p t)) eqn:Em; [exists st; split; [constructor|right; eauto]|].
    destruct (swalk p t _ _ _ _ _ _ 0 None st) as [st' d] eqn:Ew. exists st'. split; [|destruct d; [right; eauto|now left]].
    eapply swalk_writes; [| | |constructor|exact Ew].
    - intros Hwf. split; [apply (wf_eff p Hwf)|]. destruct (off_bounds (sp_G p) (sbound p st t) (wf_G p Hwf)) as (O1 & O2 & _).
      split; [exact O1|exact (Qlt_le_weak _ _ O2)].
    - lia.
    - intros Hwf. apply (wf_work p Hwf t Em).
  Qed.

  Lemma sprepass_reachable : reachable stables sok (sprepass p).
  Proof. rewrite sprepass_eq. apply prepass_by_inv; [intros; now constructor|constructor]. Qed.

  Theorem sschedule_reachable : reachable stables sok (sschedule p).
  Proof.
    unfold sschedule. rewrite sloop_eq. apply loop_by_inv0; [|exact sprepass_reachable].
    intros st t. exact (task_step_reachable (sschedule_task_step st t)).
  Qed.

  Theorem sschedule_working r s : entries (cells (sschedule p) r s) <> [] -> sr_work (sres_of p r) s = true.
  Proof. exact (sound_working (reachable_sound sschedule_reachable) r s). Qed.

  Theorem subslot_limits l k : (susage p (sschedule p) l k <= sl_value (slim_of p l))%nat.
  Proof. exact (sound_limits (reachable_sound sschedule_reachable) l k). Qed.

  Theorem subslot_ecov : ECov (sschedule p).
  Proof. exact (sound_ecov (reachable_sound sschedule_reachable)). Qed.

End EveryProject.
