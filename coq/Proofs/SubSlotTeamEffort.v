(* Teams at second granularity: one member's booking (member_books), a team whose gate passed (book_members_gate,
   team_slot), the release of the last slot cell by cell, and what a booked slot is (SlotBooked).  At the end TBooked, what
   C03 says of a placed team task. *)
From Coq Require Import QArith Qminmax List Lqa.
Require Import SP.Model.Ledger SP.Proofs.LedgerProofs SP.Model.SubSlot SP.Model.SubSlotTeam SP.Proofs.SubSlotProofs SP.Proofs.SubSlotTeamProofs.
Import ListNotations.

Section TeamEffort.
  Variable p : tproject.
  Hypothesis Hwf : twf p.
  Local Notation G := (inject_Z (tp_G p)).

  Local Opaque step.
  (* xr: the entry holds Qmin (avail G c1) m, which equals m as a rational and is another term *)
  Lemma member_books t off (first : bool) m c0 :
    Inv G c0 /\ Forall (fun e => 0 < snd e) (entries c0) -> tol_avail < G - used c0 ->
    0 <= off -> tol_avail < G - off -> 0 < m -> m <= free p (if first then off else 0) c0 ->
    let c1 := offset_if G first off c0 in
    let c2 := step G c1 (Book t (Some m)) in
    (Qle_bool (G - used c1) tol_avail || Nat.eqb (length (entries c2)) (length (entries c1))) = false /\
    Qmin (G - used c1) m == m /\
    exists xr, xr == m /\ entries c2 = entries c0 ++ [(t, xr)] /\ used c2 = used c1 + xr.
  Proof.
    intros [Hi Hp] Ha Ho1 Ho2 Hm1 Hm2 c1 c2. pose proof (o_bounds p first off Ho1 Ho2) as Ho. pose proof Hi as (U1 & _).
    assert (Hu1 : tol_avail < G - used c1).
    { unfold c1. rewrite offset_if_used by exact U1. destruct (Q.max_spec (used c0) (if first then off else 0)) as [[_ M]|[_ M]]; now rewrite M. }
    assert (Hnr : refuses c1 = false).
    { apply (not_refused G); [apply offset_if_inv; [unfold tol_avail in Ho2; split; lra|exact Hi]|unfold c1; now rewrite offset_if_entries]. }
    destruct (Qle_bool (G - used c1) tol_avail || _) eqn:Et.
    { pose proof (book_test_true G tol_avail t c1 (Some m) tol_avail_nonneg Hnr Et). lra. }
    apply orb_false_iff in Et as [_ Et].
    destruct (book_test_false G t c1 (Some m) ltac:(now intros ? [= <-]) Et) as (_ & Hav & Hent & Hused).
    assert (Hle : m <= G - used c1) by (rewrite <- Hav; unfold c1, avail; now rewrite offset_if_used).
    split; [reflexivity|]. split; [now apply Q.min_r|].
    exists (Qmin (avail G c1) m). split; [rewrite Hav; now apply Q.min_r|]. split; [|exact Hused].
    fold c2 in Hent. rewrite Hent. unfold c1. now rewrite offset_if_entries.
  Qed.

  Lemma release_members_cells t needed slot : forall (l : list (nat * Q * Q)) st,
    NoDup (map (fun x => fst (fst x)) l) ->
    (forall x, In x l -> cells (release_members G t needed slot l st) (fst (fst x)) slot
                         = step G (cells st (fst (fst x)) slot) (Finish t needed)) /\
    (forall r' s', (~ In r' (map (fun x => fst (fst x)) l) \/ s' <> slot) ->
                   cells (release_members G t needed slot l st) r' s' = cells st r' s') /\
    sbooked (release_members G t needed slot l st) = sbooked st.
  Proof.
    unfold release_members. induction l as [|x tl IH]; intros st Hnd; cbn [fold_left map].
    - repeat split; intros; try reflexivity. destruct H.
    - cbn [map] in Hnd. inversion Hnd as [|? ? Hnx Hnd']; subst.
      set (st1 := set_cell st (fst (fst x)) slot (step G (cells st (fst (fst x)) slot) (Finish t needed))).
      destruct (IH st1 Hnd') as (A & B & C). split; [|split].
      + intros y [<-|Hy].
        * rewrite B by (left; exact Hnx). unfold st1. apply cells_set_same.
        * rewrite (A y Hy). unfold st1. rewrite cells_set_other; [reflexivity|]. left. intros E. apply Hnx.
          rewrite <- E. apply in_map_iff. exists y. split; [reflexivity|exact Hy].
      + intros r' s' H. rewrite B.
        * unfold st1. apply cells_set_other. destruct H as [Hn|Hs]; [left; intros ->; apply Hn; now left|now right].
        * destruct H as [Hn|Hs]; [left; intros Hin; apply Hn; now right|now right].
      + rewrite C. reflexivity.
  Qed.

  Definition multi (team : list nat) : bool := match team with _ :: _ :: _ => true | _ => false end.

  Lemma gate_ext st st' t slot : forall team ev, (forall r, In r team -> cells st' r slot = cells st r slot) ->
    team_gate p st' t slot ev team = team_gate p st t slot ev team.
  Proof.
    induction team as [|r tl IH]; intros ev H; cbn [team_gate]; [reflexivity|]. unfold member_available.
    rewrite (H r (or_introl eq_refl)), IH; [reflexivity|]. intros r' Hr'. apply H. now right.
  Qed.

  (* one slot booked for the whole team, m seconds each; u1: the used seconds of the member's cell after the offset *)
  Record SlotBooked (st st1 : sstate) (t : nat) (team : list nat) (slot : nat) (m : Q) : Prop := {
    sb_pos : 0 < m;
    sb_le : m <= G;
    sb_member : forall r, In r team -> sr_work (tres_of p r) slot = true /\ exists xr u1, xr == m /\ used (cells st r slot) <= u1 /\
       entries (cells st1 r slot) = entries (cells st r slot) ++ [(t, xr)] /\ used (cells st1 r slot) == u1 + xr;
    sb_other : forall r' s', (~ In r' team \/ s' <> slot) -> cells st1 r' s' = cells st r' s';
    sb_events : exists new, sbooked st1 = new ++ sbooked st
  }.

  Record Gained (team : list nat) (booked : list (nat * Q * Q)) (m : Q) : Prop := {
    gained_team : map (fun x => fst (fst x)) booked = team;
    gained_secs : Forall (fun x => snd (fst x) == m) booked
  }.

  Lemma gained_eq team booked m : 0 <= m -> Gained team booked m ->
    qmax_list (map (fun x => snd (fst x) * sr_eff (tres_of p (fst (fst x)))) booked) == m * team_eff p team.
  Proof.
    intros Hm [<- Hall]. unfold team_eff, qmax_list. rewrite <- (fold_qmax_scale m Hm), !map_map.
    apply fold_qmax_ext; [|ring]. induction Hall as [|x l Hx _ IH]; cbn [map]; constructor; [now rewrite Hx|exact IH].
  Qed.

  (* While the gate holds for the members still to come - with the events of those already booked - the next member
     books m seconds: its cell is as the gate saw it (no member twice), and the gate's limit test is the one
     book_members makes. *)
  Lemma book_members_gate t off (first : bool) m slot : 0 <= off -> tol_avail < G - off -> 0 < m -> m <= G ->
    forall team st st' l, NoDup team ->
      (forall r, In r team -> Inv G (cells st r slot) /\ Forall (fun e => 0 < snd e) (entries (cells st r slot))) ->
      team_gate p st t slot (sbooked st) team = true ->
      (forall r, In r team -> m <= free p (if first then off else 0) (cells st r slot)) ->
      book_members p t off first (Some m) slot team st = (st', l) ->
      Gained team l m /\ SlotBooked st st' t team slot m.
  Proof.
    intros Ho1 Ho2 Hm HmG. induction team as [|r tl IH]; intros st st' l Hnd Hinv Hg Hfree H; cbn [book_members] in H.
    - injection H as <- <-. split; [split; [reflexivity|constructor]|]. constructor; [exact Hm|exact HmG|intros r []|reflexivity|now exists []].
    - inversion Hnd as [|? ? Hnr Hnd']; subst.
      destruct (gate_spec p Hg r (or_introl eq_refl)) as (Ew & Ha).
      cbn [team_gate] in Hg. apply andb_true_iff in Hg as [Hg Hgtl]. apply andb_true_iff in Hg as [_ Hlim].
      rewrite Ew in H. set (c0 := cells st r slot) in *. fold (offset_if G first off c0) in H.
      destruct (member_books t off first m c0 (Hinv r (or_introl eq_refl)) Ha Ho1 Ho2 Hm (Hfree r (or_introl eq_refl)))
        as (Hb & Hamt & xr & Hx & Hent & Hused).
      cbn zeta in Hb. rewrite Hb, Hlim in H. cbn [negb orb] in H.
      set (st1 := note_booking (set_cell st r slot (step G (offset_if G first off c0) (Book t (Some m)))) t r slot) in *.
      destruct (book_members p t off first (Some m) slot tl st1) as [st2 l2] eqn:E2. injection H as <- <-.
      assert (Hsame : forall r', In r' tl -> cells st1 r' slot = cells st r' slot).
      { intros r' Hr'. unfold st1. rewrite cells_note, cells_set_other; [reflexivity|]. left. intros ->. contradiction. }
      destruct (IH st1 st2 l2 Hnd') as [[Hmap Hall] [_ _ Hmem Hfr [new Hsb]]]; [| | |exact E2|].
      + intros r' Hr'. rewrite Hsame by exact Hr'. apply Hinv. now right.
      + rewrite (gate_ext st st1) by exact Hsame. exact Hgtl.
      + intros r' Hr'. rewrite Hsame by exact Hr'. apply Hfree. now right.
      + split; [split; [cbn [map fst]; now rewrite Hmap|constructor; [exact Hamt|exact Hall]]|].
        constructor; [exact Hm|exact HmG| | |].
        * intros r' [<-|Hr'].
          -- split; [exact Ew|]. exists xr, (used (offset_if G first off c0)). rewrite Hfr by (left; exact Hnr).
             unfold st1. rewrite cells_note, cells_set_same. split; [exact Hx|]. split; [apply (offset_if_used_ge G first off)|].
             split; [exact Hent|now rewrite Hused].
          -- destruct (Hmem r' Hr') as (W & X). rewrite Hsame in X by exact Hr'. now split.
        * intros r' s' Hrs. rewrite Hfr.
          -- unfold st1. rewrite cells_note. apply cells_set_other. destruct Hrs as [Hn|Hs]; [left; intros ->; apply Hn; now left|now right].
          -- destruct Hrs as [Hn|Hs]; [left; intros Hin; apply Hn; now right|now right].
        * exists (new ++ [(t, r, slot)]). rewrite Hsb. unfold st1. cbn [note_booking set_cell sbooked]. now rewrite <- app_assoc.
  Qed.

  Lemma team_slot {t off} {first : bool} {slot team st} : multi team = true -> NoDup team -> CellsOk G st ->
    0 <= off -> tol_avail < G - off -> team_gate p st t slot (sbooked st) team = true ->
    exists m, common_secs G (if first then off else 0) st slot team = Some m /\ forall st1 booked,
      book_members p t off first (Some m) slot team st = (st1, booked) -> Gained team booked m /\ SlotBooked st st1 t team slot m.
  Proof.
    intros Hmulti Hnd Hc Ho1 Ho2 Hgate. set (o := if first then off else 0) in *.
    destruct team as [|r0 tl]; [discriminate|].
    destruct (common_secs G o st slot (r0 :: tl)) as [m|] eqn:Ec; [|cbn [common_secs] in Ec; destruct (common_secs G o st slot tl); discriminate].
    assert (Hm : tol_avail < m) by exact (gate_common p st t slot _ first off m Ho1 Ho2 Hgate Ec).
    assert (HmG : m <= G).
    { eapply Qle_trans; [exact (common_le p r0 Ec (or_introl eq_refl))|]. apply (free_le p _ _ Hwf), Hc. }
    exists m. split; [reflexivity|]. intros st1 booked. apply book_members_gate; try assumption.
    - unfold tol_avail in Hm. lra.
    - intros r _. apply Hc.
    - intros r Hr. exact (common_le p r Ec Hr).
  Qed.

  Definition TBooked (st : sstate) (t : nat) : Prop :=
    let k := ttask_of p t in let team := tt_team k in let e := team_eff p team in
    exists bs : list (nat * Q), bs <> [] /\ NoDup (map fst bs) /\
      (forall s x, In (s, x) bs -> 0 < x /\ x <= G /\
         forall r, In r team -> sr_work (tres_of p r) s = true /\ exists xr, xr == x /\ tent t (cells st r s) = [(t, xr)]) /\
      (forall r' s', (~ In r' team \/ ~ In s' (map fst bs)) -> tent t (cells st r' s') = []) /\
      tt_effort k - tol_done <= sumq (map snd bs) * e /\ sumq (map snd bs) * e <= tt_effort k.

  Lemma TBooked_stable st st' t : (forall r s, tent t (cells st' r s) = tent t (cells st r s)) -> TBooked st t -> TBooked st' t.
  Proof.
    intros Hc (bs & B1 & B2 & B3 & B4 & B5 & B6). exists bs. split; [exact B1|]. split; [exact B2|]. split; [|split; [|split; assumption]].
    - intros s x Hin. destruct (B3 s x Hin) as (A1 & A2 & A3). split; [exact A1|]. split; [exact A2|].
      intros r Hr. destruct (A3 r Hr) as (W & xr & E1 & E2). split; [exact W|]. exists xr. split; [exact E1|]. now rewrite Hc.
    - intros r' s' H. rewrite Hc. now apply B4.
  Qed.
End TeamEffort.
Arguments sb_pos {p st st1 t team slot m}.
Arguments sb_le {p st st1 t team slot m}.
Arguments sb_member {p st st1 t team slot m}.
Arguments sb_other {p st st1 t team slot m}.
