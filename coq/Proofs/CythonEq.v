(* The regenerated slot/time conversions (Gen/ScoreboardPy, Gen/ProjectPy) and their Cython twins.  First the algebra
   of the Python versions (C17), for every start/end/resolution/index, no bound.  Then C13: every twin equals its
   pure-Python fallback for all arguments for which the C 'int' variables of the twin do not wrap (hypothesis in_c_int). *)
From Coq Require Import ZArith List Lia.
Require Import SP.Base.PyRt SP.Gen.ScoreboardCy SP.Gen.ScoreboardPy SP.Gen.TimeUtilsCy SP.Gen.ProjectPy.
Open Scope Z_scope.

Lemma c_int_id z : in_c_int z -> c_int z = z.
Proof. unfold in_c_int, c_int. intros H. rewrite Z.mod_small; lia. Qed.

Lemma floor_bracket a r : 0 < r -> r * (a / r) <= a < r * (a / r + 1).
Proof. intros Hr. split; [apply Z.mul_div_le|apply Z.mul_succ_div_gt]; exact Hr. Qed.

Lemma trunc_div_nonneg a r : 0 <= a -> 0 < r -> py_trunc_div a r = a / r.
Proof. apply Z.quot_div_nonneg. Qed.

Lemma trunc_div_mul i r : 0 < r -> py_trunc_div (i * r) r = i.
Proof. intros Hr. apply Z.quot_mul. lia. Qed.

Lemma idxToDate_in s e r size i f : 0 <= i < size ->
  Scoreboard_idxToDate_py s e r size i f = Ok (s + i * r).
Proof.
  intros Hi. unfold Scoreboard_idxToDate_py.
  replace (i <? 0) with false by lia. replace (i >=? size) with false by lia. now destruct f.
Qed.

Lemma idxToDate_out s e r size i : i < 0 \/ size <= i ->
  Scoreboard_idxToDate_py s e r size i false = Raise IndexError.
Proof. intros H. unfold Scoreboard_idxToDate_py. now replace ((i <? 0) || (i >=? size)) with true by lia. Qed.

Lemma dateToIdx_in s e r size t f : 0 <= py_trunc_div (t - s) r < size ->
  Scoreboard_dateToIdx_py s e r size t f = Ok (py_trunc_div (t - s) r).
Proof.
  intros Hq. unfold Scoreboard_dateToIdx_py; cbn zeta.
  replace (_ <? 0) with false by lia. replace (_ >=? size) with false by lia. now destruct f.
Qed.

Lemma dateToIdx_force_range s e r size t i : 1 <= size ->
  Scoreboard_dateToIdx_py s e r size t true = Ok i -> 0 <= i < size.
Proof.
  intros Hs. unfold Scoreboard_dateToIdx_py; cbn zeta. set (q := py_trunc_div (t - s) r).
  destruct (q <? 0) eqn:?; [intros [= <-]; lia|]. destruct (q >=? size) eqn:?; intros [= <-]; lia.
Qed.
Arguments dateToIdx_force_range {s e r size t i}.

Section Sb.
  Variables (s e r : Z).
  Hypothesis Hr : 0 < r.
  Let size := Scoreboard_size s e r.

  (* the table covers [s, e]: its last slot starts at or after e, and no smaller table would *)
  Lemma size_covers : s + (size - 1) * r >= e /\ s + (size - 2) * r < e.
  Proof.
    unfold size, Scoreboard_size, py_ceil_div; cbn zeta. pose proof (floor_bracket (- (e - s)) r Hr). lia.
  Qed.

  Lemma size_pos : s <= e -> 1 <= size.
  Proof. intros Hse. pose proof size_covers. nia. Qed.

  Lemma idxToDate_mono i j ti tj : 0 <= i -> i < j -> j < size ->
    Scoreboard_idxToDate_py s e r size i false = Ok ti ->
    Scoreboard_idxToDate_py s e r size j false = Ok tj -> ti < tj.
  Proof.
    intros H0 Hij Hj. rewrite !idxToDate_in by lia. intros [= <-] [= <-].
    apply Z.add_lt_mono_l, Z.mul_lt_mono_pos_r; assumption.
  Qed.

  Lemma idxToDate_clamp i :
    Scoreboard_idxToDate_py s e r size i true =
      Ok (if i <? 0 then s else if i >=? size then e else s + i * r).
  Proof.
    unfold Scoreboard_idxToDate_py. destruct (i <? 0); [reflexivity|]. destruct (i >=? size); reflexivity.
  Qed.

  (* time -> index is the floor-inverse of index -> time on instants of the window *)
  Lemma dateToIdx_bracket t f : s <= t <= e ->
    exists i, Scoreboard_dateToIdx_py s e r size t f = Ok i /\ 0 <= i < size /\
              s + i * r <= t < s + (i + 1) * r.
  Proof.
    intros Ht. exists ((t - s) / r). rewrite <- trunc_div_nonneg by lia.
    pose proof (floor_bracket (t - s) r Hr) as Hb. pose proof size_covers as [Hc _].
    assert (Hin : 0 <= (t - s) / r < size).
    { split; [apply Z.div_pos; lia|apply Z.div_lt_upper_bound; lia]. }
    rewrite <- trunc_div_nonneg in Hin, Hb by lia.
    rewrite dateToIdx_in by exact Hin. repeat split; lia.
  Qed.

  Lemma dateToIdx_idxToDate i f : 0 <= i < size ->
    Scoreboard_dateToIdx_py s e r size (s + i * r) f = Ok i.
  Proof.
    intros Hi. assert (E : py_trunc_div (s + i * r - s) r = i).
    { replace (s + i * r - s) with (i * r) by lia. now apply trunc_div_mul. }
    rewrite dateToIdx_in; rewrite E; [reflexivity|exact Hi].
  Qed.

  (* instants at least one slot before the start, or after the table, are rejected without clamping.
     (An instant in (s - r, s) truncates toward zero to index 0 and is accepted: int() is not floor.
      The property only speaks about instants of the window; this band is documented in DESIGN.md.) *)
  Lemma dateToIdx_reject t : s <= e -> t <= s - r \/ s + size * r <= t ->
    Scoreboard_dateToIdx_py s e r size t false = Raise IndexError.
  Proof.
    intros Hse H. pose proof (size_pos Hse).
    assert (Hq : py_trunc_div (t - s) r < 0 \/ size <= py_trunc_div (t - s) r)
      by (unfold py_trunc_div; destruct H as [H|H]; [left|right]; Z.to_euclidean_division_equations; nia).
    unfold Scoreboard_dateToIdx_py; cbn zeta. now replace (_ || _) with true by lia.
  Qed.
End Sb.

Lemma prj_idxToDate_mono s g i j : 0 < g -> i < j -> Project_idxToDate_py s g i < Project_idxToDate_py s g j.
Proof. intros Hg Hij. apply Z.add_lt_mono_l, Z.mul_lt_mono_pos_r; assumption. Qed.

Lemma prj_dateToIdx_idxToDate s g i f : 0 < g -> Project_dateToIdx_py s g (Project_idxToDate_py s g i) f = i.
Proof.
  intros Hg. unfold Project_dateToIdx_py, Project_idxToDate_py; cbn zeta.
  replace (s + i * g - s) with (i * g) by lia. now apply trunc_div_mul.
Qed.

Lemma prj_dateToIdx_bracket s g t f : 0 < g -> s <= t ->
  let i := Project_dateToIdx_py s g t f in
  0 <= i /\ Project_idxToDate_py s g i <= t < Project_idxToDate_py s g (i + 1).
Proof.
  intros Hg Ht. unfold Project_dateToIdx_py, Project_idxToDate_py; cbn zeta.
  rewrite trunc_div_nonneg by lia. pose proof (floor_bracket (t - s) g Hg).
  split; [apply Z.div_pos|]; lia.
Qed.

Lemma sb_idxToDate_eq s e r size i f : in_c_int (i * r) ->
  Scoreboard_idxToDate_cy s e r size i f = Scoreboard_idxToDate_py s e r size i f.
Proof.
  intros H. unfold Scoreboard_idxToDate_cy, Scoreboard_idxToDate_py, idx_to_date_fast.
  rewrite c_int_id by assumption.
  destruct f; destruct (i <? 0) eqn:?; destruct (i >=? size) eqn:?; cbn; reflexivity.
Qed.

Lemma sb_dateToIdx_eq s e r size t f : in_c_int (py_trunc_div (t - s) r) ->
  Scoreboard_dateToIdx_cy s e r size t f = Scoreboard_dateToIdx_py s e r size t f.
Proof.
  intros H. unfold Scoreboard_dateToIdx_cy, Scoreboard_dateToIdx_py, date_to_idx_fast; cbn zeta.
  rewrite c_int_id by assumption. set (q := py_trunc_div (t - s) r).
  destruct f; destruct (q <? 0) eqn:?; destruct (q >=? size) eqn:?; cbn; try reflexivity; lia.
Qed.

Lemma prj_dateToIdx_eq s g t f : in_c_int (py_trunc_div (t - s) g) ->
  Project_dateToIdx_cy s g t f = Project_dateToIdx_py s g t f.
Proof.
  intros H. unfold Project_dateToIdx_cy, Project_dateToIdx_py, project_date_to_idx; cbn zeta.
  now rewrite c_int_id.
Qed.

Lemma prj_idxToDate_eq s g i : in_c_int (i * g) ->
  Project_idxToDate_cy s g i = Project_idxToDate_py s g i.
Proof.
  intros H. unfold Project_idxToDate_cy, Project_idxToDate_py, project_idx_to_date; cbn zeta.
  now rewrite c_int_id.
Qed.

Lemma prj_size_eq s e g : in_c_int (py_trunc_div (e - s) g) -> in_c_int (py_trunc_div (e - s) g + 1) ->
  scoreboard_size_cy s e g = Project_scoreboardSize_nosb s e g.
Proof.
  intros H1 H2. unfold scoreboard_size_cy, Project_scoreboardSize_nosb; cbn.
  now rewrite (c_int_id _ H1), (c_int_id _ H2).
Qed.

(* declared C return types: nothing narrower than the Python value *)
Lemma ret_ctypes_scoreboard :
  date_to_idx_fast_ret_ctype = 1%nat /\ idx_to_date_fast_ret_ctype = 0%nat /\
  collect_intervals_fast_ret_ctype = 0%nat /\ project_date_to_idx_ret_ctype = 1%nat /\
  project_idx_to_date_ret_ctype = 0%nat /\ scoreboard_size_cy_ret_ctype = 1%nat.
Proof. repeat split; reflexivity. Qed.
