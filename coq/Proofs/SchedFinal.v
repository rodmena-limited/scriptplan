(* Final-state theorems about [schedule p], for every project of the model dialect. *)
From Coq Require Import List Arith.
Require Import SP.Model.Sched SP.Proofs.Generic SP.Proofs.GenericInst SP.Proofs.SchedWalk SP.Proofs.SchedOrder SP.Proofs.SchedMain.
Import ListNotations.

Section Final.
  Variable p : project.

  (* what the pre-pass leaves: no booking, and dates only for milestones with a date of their own, at that date *)
  Definition PinsOnly (st : state) : Prop :=
    bookings st = [] /\
    forall t d, leaf_dates st t = Some d -> exists s, d = (s, s) /\ t_pin (task_of p t) = Some s /\ t_need (task_of p t) = 0.

  Lemma prepass_PinsOnly : PinsOnly (prepass p).
  Proof.
    rewrite prepass_eq. apply prepass_by_inv; [|split; [reflexivity|discriminate]].
    intros st u d Hd [Hb Hp]. apply pin_of_some in Hd as (s & -> & Hpin & Hneed).
    split; [exact Hb|]. intros t d Ht. apply leaf_dates_place in Ht as [[-> ->]|[_ Ht]]; [now exists s|now apply Hp].
  Qed.

  Definition work0 : list nat :=
    filter (fun t => match leaf_dates (prepass p) t with Some _ => false | None => true end) (sorted_leaves p).

  Lemma prepass_J : J p (prepass p) work0.
  Proof.
    destruct prepass_PinsOnly as [Hb Hp]. constructor.
    - apply NoDup_filter. apply sorted_leaves_spec.
    - intros t Ht. apply filter_In in Ht as [_ Ht]. destruct (leaf_dates (prepass p) t); [discriminate|reflexivity].
    - intros b Hbk. rewrite Hb in Hbk. destruct Hbk.
    - intros t f e Ht. destruct (Hp t _ Ht) as (s & [= -> ->] & Hpin & Hneed).
      (* placed from the empty state, which holds nothing of t, at its own date *)
      apply (Good_milestone p init).
      + split; [exists []; now rewrite Hb|discriminate].
      + intros x [].
      + exact Hneed.
      + split; congruence.
      + congruence.
    - intros t f e Ht x Hx. rewrite Hb in Hx. destruct Hx.
    - intros t f e Ht Hn. destruct (Hp t _ Ht) as (s & _ & _ & Hneed). congruence.
  Qed.

  Theorem final_J : exists rest, J p (schedule p) rest.
  Proof. unfold schedule. rewrite loop_eq. apply loop_by_inv; [exact (step_J p)|apply prepass_J]. Qed.

  Definition final := schedule p.

  Lemma final_good t f e : leaf_dates final t = Some (f, e) -> Good p final t f e.
  Proof. destruct final_J as [rest HJ]. apply (j_good HJ). Qed.

  (* C04: every dependency of a task without a date of its own is satisfied *)
  Theorem deps_respected t f e : leaf_dates final t = Some (f, e) -> t_pin (task_of p t) = None ->
    t_lb (task_of p t) <= f /\
    forall d, In d (t_deps (task_of p t)) ->
      exists s' e', dates p final (d_task d) = Some (s', e') /\ (if d_onstart d then s' else e') + d_gap d <= f.
  Proof.
    intros Ht Hpin. destruct (Good_bound (final_good t f e Ht)) as (b & st0 & _ & _ & Hb & HB & _).
    destruct (Bound_dates HB Hpin) as [A B]. split; [now transitivity b|].
    intros d Hd. destruct (B d Hd) as (s' & e' & D1 & D2). exists s', e'. split; [exact D1|now transitivity b].
  Qed.

  (* C06: start and end frame the booked work *)
  Theorem frame t f e : leaf_dates final t = Some (f, e) ->
    (t_need (task_of p t) = 0 -> f = e) /\
    (t_need (task_of p t) <> 0 ->
       f < e /\
       (forall r, In r (t_team (task_of p t)) -> In (mk t r f) (bookings final) /\ In (mk t r (e - 1)) (bookings final)) /\
       (forall x, In x (bookings final) -> b_task x = t -> f <= b_slot x < e)).
  Proof.
    intros Ht. destruct (Good_frame (final_good t f e Ht)) as [Hm Hw]. split.
    - intros Hn. apply (Hm Hn).
    - intros Hn. destruct (Hw Hn) as (A & _ & _ & C). split; [exact A|]. split; [exact C|].
      destruct final_J as [rest HJ]. now apply (j_own HJ).
  Qed.

  (* C07 (earliest fit): between its bound and its end a task skipped a slot only when the team could
     not be booked there, given exactly the bookings of the tasks placed before it and its own earlier slots *)
  Theorem earliest_fit t f e : leaf_dates final t = Some (f, e) -> t_need (task_of p t) <> 0 ->
    exists b st0,
      b <= f /\ (forall s, t_pin (task_of p t) = Some s -> b = s) /\
      (forall y, In y (bookings st0) -> b_task y <> t /\ In y (bookings final)) /\
      forall x, b <= x -> x < e ->
        (forall r, In r (t_team (task_of p t)) -> In (mk t r x) (bookings final)) \/
        (exists stx,
           (forall y, In y (bookings stx) -> In y (bookings st0) \/ (b_task y = t /\ b_slot y < x)) /\
           (forall y, In y (bookings st0) -> In y (bookings stx)) /\
           book_team p stx t x (t_team (task_of p t)) = None).
  Proof.
    intros Ht Hn. destruct (Good_bound (final_good t f e Ht)) as (b & st0 & He & Hfresh & Hb & [Hpin _] & Hfit).
    exists b, st0. split; [exact Hb|]. split; [exact Hpin|]. split.
    - intros y Hy. split; [now apply Hfresh|now apply (bext_in st0 _ _ (proj1 He))].
    - intros x Hx1 Hx2. destruct (Hfit Hn x Hx1 Hx2) as [L|(stx & X1 & _ & X3 & X4)]; [now left|].
      right. exists stx. split; [exact X3|]. split; [|exact X4]. intros y. apply bext_in, X1.
  Qed.

  (* C03 (slot granularity): a placed task holds exactly t_need whole-team blocks in the final ledger *)
  Theorem exact_slots t f e : leaf_dates final t = Some (f, e) -> t_need (task_of p t) <> 0 ->
    exists ss, length ss = t_need (task_of p t) /\
               filter (fun x => Nat.eqb (b_task x) t) (bookings final) = concat (map (block p t) ss).
  Proof. destruct final_J as [rest HJ]. apply (j_blocks HJ). Qed.

  (* C10: a container is scheduled exactly when all leaves below it are; dates = min start / max end *)
  Theorem container_summary c : t_leaf (task_of p c) = false -> t_leaves (task_of p c) <> [] ->
    (forall s e, dates p final c = Some (s, e) ->
       (forall t, In t (t_leaves (task_of p c)) -> exists d, leaf_dates final t = Some d) /\
       (forall t s' e', In t (t_leaves (task_of p c)) -> leaf_dates final t = Some (s', e') -> s <= s' /\ e' <= e) /\
       (exists t s' e', In t (t_leaves (task_of p c)) /\ leaf_dates final t = Some (s', e') /\ s' = s) /\
       (exists t s' e', In t (t_leaves (task_of p c)) /\ leaf_dates final t = Some (s', e') /\ e' = e)) /\
    (dates p final c = None -> exists t, In t (t_leaves (task_of p c)) /\ leaf_dates final t = None).
  Proof.
    intros Hc Hne. unfold dates. rewrite Hc, span_eq. now apply span_dates_nat.
  Qed.

  Lemma in_work0_leaf t : In t work0 -> t_leaf (task_of p t) = true.
  Proof. intros H. apply filter_In in H as [H _]. now apply sorted_leaves_spec in H. Qed.
End Final.
