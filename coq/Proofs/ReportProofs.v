(* Report bodies (Model/Report.v): one row per kept task, one cell per column, and with distinct titles the JSON record
   of a row carries under each title the CSV cell of that column (C18). *)
From Coq Require Import List.
Require Import SP.Model.Report SP.Proofs.Generic.

Section P.
  Context {T C : Type}.
  Variable is_leaf : T -> bool.
  Variable cell : T -> nat -> C.

  Lemma body_rows leaf_only ncols tasks :
    length (body is_leaf cell leaf_only ncols tasks) = length (filter (kept is_leaf leaf_only) tasks) /\
    forall i t, nth_error (filter (kept is_leaf leaf_only) tasks) i = Some t ->
                nth_error (body is_leaf cell leaf_only ncols tasks) i = Some (row cell ncols t).
  Proof.
    unfold body. split; [apply map_length|]. intros i t H. now rewrite nth_error_map, H.
  Qed.

  Lemma body_all ncols tasks : body is_leaf cell false ncols tasks = map (row cell ncols) tasks.
  Proof. unfold body. now rewrite filter_all. Qed.

  Lemma row_cell ncols t j : j < ncols -> nth_error (row cell ncols t) j = Some (cell t j).
  Proof.
    intros Hj. unfold row. rewrite nth_error_map.
    assert (E : nth_error (seq 0 ncols) j = Some j).
    { rewrite nth_error_nth' with (d := 0) by (rewrite seq_length; exact Hj). now rewrite seq_nth. }
    now rewrite E.
  Qed.

  Lemma dict_last_absent {K : Type} (eqb : K -> K -> bool) (eqb_spec : forall a b, eqb a b = true <-> a = b) h :
    forall (titles : list K) (r : list C), ~ In h titles -> dict_last eqb h (combine titles r) = None.
  Proof.
    induction titles as [|a tl IH]; intros r Hnot; [reflexivity|].
    destruct r as [|c r]; [reflexivity|]. cbn. rewrite IH by (intros Hi; apply Hnot; now right).
    destruct (eqb h a) eqn:E; [|reflexivity]. apply eqb_spec in E. subst. exfalso. apply Hnot. now left.
  Qed.

  Lemma dict_last_combine {K : Type} (eqb : K -> K -> bool) (eqb_spec : forall a b, eqb a b = true <-> a = b) :
    forall (titles : list K) (r : list C) j h c,
      NoDup titles -> nth_error titles j = Some h -> nth_error r j = Some c ->
      dict_last eqb h (combine titles r) = Some c.
  Proof.
    induction titles as [|h0 tl IH]; intros r j h c Hnd Hh Hc; [destruct j; discriminate|].
    destruct r as [|c0 r]; [destruct j; discriminate|]. cbn [combine dict_last].
    inversion Hnd as [|? ? Hnot Hnd']; subst. destruct j as [|j]; cbn in Hh, Hc.
    - injection Hh as <-. injection Hc as <-.
      rewrite (dict_last_absent eqb eqb_spec) by exact Hnot.
      now rewrite (proj2 (eqb_spec h0 h0) eq_refl).
    - now rewrite (IH r j h c Hnd' Hh Hc).
  Qed.
End P.
