(* Second granularity: why a slot was walked past (Reason), that this stays true while used seconds and booking events
   only grow (Grows), NoIdle, what C08 says of a placed task, and SGood, all that holds of one.  Then the slot walk of one task as a relation (Walk),
   for the single resource and for teams alike, and what follows from a walk by induction: the booked slots and their
   seconds (C03), the cells, the reasons of the slots passed (C08), and the dates (C04, C06; used by the single-resource
   model only - the dates of teams hold of teams with repeated members too, SubSlotTeamProofs.twalk_dates). *)
From Coq Require Import QArith Qround List Lia Lqa.
Require Import SP.Model.Ledger SP.Model.SubSlot SP.Proofs.SubSlotProofs.
Import ListNotations.

Section Idle.
  Variable p : sproject.
  Local Notation G := (inject_Z (sp_G p)).

  (* Blocked_by (stables p) G st t r s [] by conversion, written with the model's own functions: NoIdle is what
     Props/C08.v shows *)
  Definition Reason (st : sstate) (t r s : nat) : Prop :=
    sr_work (sres_of p r) s = false \/
    G - used (cells st r s) <= tol_avail \/
    exists l, In l (slimits_of p t r) /\ (sl_value (slim_of p l) <= susage p st l (sl_period (slim_of p l) s))%nat.

  Definition Grows (st st' : sstate) : Prop :=
    (forall r s, used (cells st r s) <= used (cells st' r s)) /\ (exists new, sbooked st' = new ++ sbooked st).

  Lemma Blocked_mono T g st st' t r s ev : Grows st st' -> Blocked_by T g st t r s ev -> Blocked_by T g st' t r s ev.
  Proof.
    intros [Hu [new Hb]] [H|[H|(l & Hl & H)]]; [now left| |].
    - right. left. specialize (Hu r s). lra.
    - right. right. exists l. split; [exact Hl|]. eapply Nat.le_trans; [exact H|]. rewrite Hb. apply usage_by_grows.
  Qed.

  Definition NoIdle (st : sstate) (t : nat) : Prop :=
    let k := stask_of p t in let r := s_res k in
    exists b : Z,
      (0 <= b)%Z /\
      (forall s, s_pin k = Some s -> b = s) /\
      (s_pin k = None ->
         (s_lb k <= b)%Z /\
         forall d, In d (s_deps k) ->
           exists s' e', sdates p st (sd_task d) = Some (s', e') /\ ((if sd_onstart d then s' else e') + sd_gap d <= b)%Z) /\
      forall s s2, (Z.to_nat (b / sp_G p) <= s)%nat -> (s < s2)%nat ->
        tent t (cells st r s2) <> [] -> tent t (cells st r s) = [] -> Reason st t r s.

  (* the last clause of NoIdle, for a given b *)
  Definition IdleFrom (st : sstate) (t : nat) (b : Z) : Prop :=
    let r := s_res (stask_of p t) in
    forall s s2, (Z.to_nat (b / sp_G p) <= s)%nat -> (s < s2)%nat ->
      tent t (cells st r s2) <> [] -> tent t (cells st r s) = [] -> Reason st t r s.

  (* the second and third clause of NoIdle are SBound st t b written out *)
  Lemma NoIdle_from st t b : (0 <= b)%Z -> SBound p st t b -> IdleFrom st t b -> NoIdle st t.
  Proof. intros H0 [H1 H2] H3. exists b. split; [exact H0|]. split; [exact H1|]. split; [exact H2|exact H3]. Qed.

  (* What holds of every placed task (SubSlotRun.sfinal_good: C03, C04, C06, C08, C11).  gs_bound has one b for C04 and
     C08: to NoIdle it adds that b is not after the start - in NoIdle alone b may lie beyond the last slot booked, and
     then its last clause says nothing. *)
  Record SGood (st : sstate) (t : nat) (f e : Z) : Prop := {
    gs_order : (f <= e)%Z;
    gs_mile : s_mile (stask_of p t) = true -> f = e;
    gs_work : s_mile (stask_of p t) = false -> exists bs, Booked p st t f e bs;
    gs_bound : exists b, SBound p st t b /\ (b <= f)%Z /\ (s_mile (stask_of p t) = true -> f = b) /\
                         (0 <= b)%Z /\ (s_mile (stask_of p t) = false -> IdleFrom st t b)
  }.

  Lemma SGood_stable st st' t f e : dates_kept st st' -> Grows st st' -> (forall r s, tent t (cells st' r s) = tent t (cells st r s)) ->
    SGood st t f e -> SGood st' t f e.
  Proof.
    intros He Hg Hc [G1 G2 G3 (b & G4 & G5 & G6 & G7 & G8)]. constructor; try assumption.
    - intros Hm. destruct (G3 Hm) as [bs B]. exists bs. now apply (Booked_stable p st).
    - exists b. split; [now apply (SBound_stable p st)|]. split; [exact G5|]. split; [exact G6|]. split; [exact G7|].
      intros Hm s s2 Hs Hs2 H1 H2. rewrite Hc in H1, H2. apply (Blocked_mono (stables p) G st st' t _ s []); [exact Hg|].
      eapply (G8 Hm); eassumption.
  Qed.

  Lemma Grows_refl st : Grows st st.
  Proof. split; [intros; lra|exists []; reflexivity]. Qed.

  Lemma Grows_place st t d : Grows st (splace st t d).
  Proof. split; [intros; cbn [splace cells]; lra|exists []; reflexivity]. Qed.

  Lemma Grows_trans st1 st2 st3 : Grows st1 st2 -> Grows st2 st3 -> Grows st1 st3.
  Proof.
    intros [U1 [n1 B1]] [U2 [n2 B2]]. split; [intros r s; eapply Qle_trans; [apply U1|apply U2]|].
    exists (n2 ++ n1). now rewrite B2, B1, app_assoc.
  Qed.
End Idle.

(* The slot walk of one task over what a model says of one slot: why (the reason a slot was passed), booked (the slot
   was booked for x seconds) and member (the resources whose cells a booking may write: the one resource, or the team).
   Walk fuel slot done start st bs st' d: from slot with done and start so far, in state st, the walk books the slots
   bs, each with its seconds, reaches st', and reports the dates d if it ended (g: slot length, off: offset of the
   bound in its slot, e: the efficiency at which booked seconds are credited; z in W_fin: the end inside the last slot,
   round_end in SubSlotProofs.v). *)
Set Implicit Arguments.
Section Walk.
  Variables (g : Z) (e need off : Q).
  Variable why : sstate -> nat -> Prop.
  Variable booked : nat -> Q -> sstate -> sstate -> Prop.
  Variable member : nat -> Prop.

  Record Passed (slot : nat) (st st1 : sstate) : Prop := {
    passed_entries : forall r s, entries (cells st1 r s) = entries (cells st r s);
    passed_grows : Grows st st1;
    passed_why : why st1 slot
  }.

  Inductive Walk : nat -> nat -> Q -> option Z -> sstate -> list (nat * Q) -> sstate -> option (Z * Z) -> Prop :=
  | W_end slot done start st : Walk 0 slot done start st [] st None
  | W_pass fuel slot done start st st1 bs st' d (Hp : Passed slot st st1) :
      Walk fuel (S slot) done start st1 bs st' d -> Walk (S fuel) slot done start st bs st' d
  | W_book fuel slot done done' start st st1 x bs st' d (Hb : booked slot x st st1)
      (Hd : done' == done + x * e) :
      Walk fuel (S slot) done' (Some (start_at g off start slot)) st1 bs st' d ->
      Walk (S fuel) slot done start st ((slot, x) :: bs) st' d
  | W_fin fuel slot done start st st' x z (Hb : booked slot x st st')
      (Hlo : need - tol_done <= done + x * e) (Hhi : done + x * e <= need)
      (Hz : (0 <= z)%Z) (Hz' : start = None -> (Qfloor off <= z)%Z) :
      Walk (S fuel) slot done start st [(slot, x)] st' (Some (start_at g off start slot, (Z.of_nat slot * g + z)%Z)).

  Lemma Walk_later {fuel slot done start st bs st' d} : Walk fuel slot done start st bs st' d ->
    forall s, In s (map fst bs) -> (slot <= s)%nat.
  Proof.
    induction 1; cbn [map fst In]; intros s Hin.
    - destruct Hin.
    - apply IHWalk in Hin. lia.
    - destruct Hin as [<-|Hin]; [lia|]. apply IHWalk in Hin. lia.
    - destruct Hin as [<-|[]]. lia.
  Qed.

  Lemma Walk_nodup {fuel slot done start st bs st' d} : Walk fuel slot done start st bs st' d -> NoDup (map fst bs).
  Proof.
    induction 1; cbn [map fst].
    - constructor.
    - exact IHWalk.
    - constructor; [|exact IHWalk]. intros Hin. apply (Walk_later H) in Hin. lia.
    - constructor; [intros []|constructor].
  Qed.

  Lemma Walk_ended {fuel slot done start st bs st' d} : Walk fuel slot done start st bs st' d -> d <> None -> bs <> [].
  Proof. induction 1; intros Hn; [now elim Hn|now apply IHWalk|discriminate|discriminate]. Qed.

  Lemma Walk_sum {fuel slot done start st bs st' d} : Walk fuel slot done start st bs st' d -> d <> None ->
    need - tol_done <= done + sumq (map snd bs) * e /\ done + sumq (map snd bs) * e <= need.
  Proof.
    induction 1; intros Hn; cbn [map snd sumq].
    - now elim Hn.
    - now apply IHWalk.
    - specialize (IHWalk Hn). rewrite Hd in IHWalk. lra.
    - lra.
  Qed.

  (* the start is that of a booked slot, the first; every booked slot overlaps [f, e'] *)
  Lemma Walk_dates {fuel slot done start st bs st' d} : (0 < g)%Z -> off < inject_Z g ->
    Walk fuel slot done start st bs st' d -> forall f e', d = Some (f, e') -> (forall s0, start = Some s0 -> (s0 <= Z.of_nat slot * g)%Z) ->
    (exists s1, In s1 (map fst bs) /\ f = start_at g off start s1) /\ (f <= e')%Z /\ (Z.of_nat slot * g <= e')%Z /\
    forall s x, In (s, x) bs -> (Z.of_nat s * g <= e')%Z /\ (f < (Z.of_nat s + 1) * g)%Z.
  Proof.
    intros HG Ho. assert (Hfl : (Qfloor off < g)%Z) by (pose proof (Qfloor_le off); rewrite Zlt_Qlt; lra).
    induction 1; intros f e' Ed Hs; [discriminate| | |].
    - destruct (IHWalk f e' Ed) as (A & B & C & D); [intros s0 E; specialize (Hs s0 E); nia|].
      split; [exact A|]. split; [lia|]. split; [nia|exact D].
    - assert (Hst : (start_at g off start slot < (Z.of_nat slot + 1) * g)%Z)
        by (destruct start as [s0|]; cbn [start_at]; [specialize (Hs s0 eq_refl)|]; nia).
      destruct (IHWalk f e' Ed) as ((s1 & _ & Hf) & B & C & D); [intros s0 [= <-]; nia|]. cbn [start_at] in Hf.
      split; [exists slot; split; [now left|exact Hf]|]. split; [lia|]. split; [nia|]. intros s x' [[= <- <-]|Hin]; [nia|now apply (D s x')].
    - injection Ed as <- <-. split; [exists slot; split; [now left|reflexivity]|].
      assert ((start_at g off start slot <= Z.of_nat slot * g + z)%Z /\ (start_at g off start slot < (Z.of_nat slot + 1) * g)%Z)
        by (destruct start as [s0|]; cbn [start_at]; [specialize (Hs s0 eq_refl)|specialize (Hz' eq_refl)]; nia).
      split; [lia|]. split; [lia|]. intros s x' [[= <- <-]|[]]. lia.
  Qed.

  Hypothesis booked_grows : forall {s x st st1}, booked s x st st1 -> Grows st st1.
  Hypothesis booked_entries : forall {s x st st1}, booked s x st st1 ->
    forall r s', (~ member r \/ s' <> s) -> entries (cells st1 r s') = entries (cells st r s').
  Hypothesis why_mono : forall st st1 s, Grows st st1 -> why st s -> why st1 s.

  Lemma Walk_grows {fuel slot done start st bs st' d} : Walk fuel slot done start st bs st' d -> Grows st st'.
  Proof.
    induction 1.
    - apply Grows_refl.
    - exact (Grows_trans _ _ _ (passed_grows Hp) IHWalk).
    - exact (Grows_trans _ _ _ (booked_grows Hb) IHWalk).
    - exact (booked_grows Hb).
  Qed.

  Lemma Walk_unbooked {fuel slot done start st bs st' d} : Walk fuel slot done start st bs st' d ->
    forall r s, (~ member r \/ ~ In s (map fst bs)) -> entries (cells st' r s) = entries (cells st r s).
  Proof.
    induction 1; intros r s Hn; cbn [map fst In] in Hn.
    - reflexivity.
    - now rewrite IHWalk, (passed_entries Hp).
    - rewrite IHWalk by tauto. apply (booked_entries Hb). destruct Hn as [Hn|Hn]; [now left|right; intros ->; tauto].
    - apply (booked_entries Hb). destruct Hn as [Hn|Hn]; [now left|right; intros ->; tauto].
  Qed.

  (* sta, stb: the states before and after the booking of slot s; its cells are written then only *)
  Lemma Walk_booked {fuel slot done start st bs st' d} : Walk fuel slot done start st bs st' d ->
    forall s x, In (s, x) bs -> exists sta stb, booked s x sta stb /\
      (forall r, entries (cells sta r s) = entries (cells st r s)) /\ (forall r, entries (cells st' r s) = entries (cells stb r s)).
  Proof.
    induction 1; intros s x' Hin.
    - destruct Hin.
    - destruct (IHWalk s x' Hin) as (sta & stb & B & E1 & E2). exists sta, stb. split; [exact B|]. split; [|exact E2].
      intros r. now rewrite E1, (passed_entries Hp).
    - destruct Hin as [[= <- <-]|Hin].
      + exists st, st1. split; [exact Hb|]. split; [reflexivity|]. intros r. apply (Walk_unbooked H).
        right. intros Hin. apply (Walk_later H) in Hin. lia.
      + destruct (IHWalk s x' Hin) as (sta & stb & B & E1 & E2). exists sta, stb. split; [exact B|]. split; [|exact E2].
        intros r. rewrite E1. apply (booked_entries Hb). right. apply (in_map fst), (Walk_later H) in Hin. cbn [fst] in Hin. lia.
    - destruct Hin as [[= <- <-]|[]]. exists st, st'. split; [exact Hb|]. split; reflexivity.
  Qed.

  Lemma Walk_passed {fuel slot done start st bs st' d} : Walk fuel slot done start st bs st' d ->
    forall s s2, (slot <= s < s2)%nat -> In s2 (map fst bs) -> ~ In s (map fst bs) -> why st' s.
  Proof.
    induction 1; intros s s2 Hs Hin Hn; cbn [map fst In] in *.
    - destruct Hin.
    - destruct (Nat.eq_dec s slot) as [->|Hne]; [|apply (IHWalk s s2); [lia|assumption..]].
      exact (why_mono (Walk_grows H) (passed_why Hp)).
    - destruct Hin as [<-|Hin]; [lia|]. apply (IHWalk s s2); [|exact Hin|tauto].
      assert (s <> slot) by (intros ->; apply Hn; now left). lia.
    - lia.
  Qed.
End Walk.
Unset Implicit Arguments.
