(* The regenerated period index of limits (Limit._idx_to_sb_idx) is the calendar-day difference for daily limits and the
   Monday-week difference for weekly limits, so two slots share a counter iff they lie in the same day or week (C05);
   it is unchanged when the start moves by whole weeks (C14), and so are weekday, hour and minute of an instant (the
   dt_* facts at the end, which CalendarProofs.v and HoursProofs.v use). *)
From Coq Require Import ZArith Lia.
Require Import SP.Base.PyRt SP.Gen.LimitsPy SP.Spec.Cal.
Open Scope Z_scope.

Lemma daily_idx start g i :
  Limit_idx_to_sb_idx start g 86400 i = day_of (start + i * g) - day_of start.
Proof. reflexivity. Qed.

Lemma monday d : d - date_weekday d = 7 * ((d + 3) / 7) - 3.
Proof. unfold date_weekday. pose proof (Z.div_mod (d + 3) 7). lia. Qed.

Lemma weekly_idx start g i :
  Limit_idx_to_sb_idx start g 604800 i = week_of (start + i * g) - week_of start.
Proof.
  unfold Limit_idx_to_sb_idx, week_of, dt_date, py_floordiv. cbn. rewrite !monday.
  symmetry. apply Z.div_unique_exact; [discriminate|lia].
Qed.

Lemma daily_same start g i j :
  Limit_idx_to_sb_idx start g 86400 i = Limit_idx_to_sb_idx start g 86400 j
  <-> day_of (start + i * g) = day_of (start + j * g).
Proof. rewrite !daily_idx. lia. Qed.

Lemma weekly_same start g i j :
  Limit_idx_to_sb_idx start g 604800 i = Limit_idx_to_sb_idx start g 604800 j
  <-> week_of (start + i * g) = week_of (start + j * g).
Proof. rewrite !weekly_idx. lia. Qed.

Lemma idx_nonneg start g p i : 0 <= g -> 0 <= i -> p = 86400 \/ p = 604800 ->
  0 <= Limit_idx_to_sb_idx start g p i.
Proof.
  intros Hg Hi Hp. assert (Hd : day_of start <= day_of (start + i * g)).
  { apply Z.div_le_mono; [reflexivity|]. pose proof (Z.mul_nonneg_nonneg i g Hi Hg). lia. }
  destruct Hp as [-> | ->]; [rewrite daily_idx; lia|rewrite weekly_idx].
  apply Zle_minus_le_0, Z.div_le_mono; [reflexivity|]. unfold day_of in Hd. lia.
Qed.

Lemma week_mod d t k : (d | 604800) -> (t + 604800 * k) mod d = t mod d.
Proof.
  intros [q ->]. destruct (Z.eq_dec d 0) as [->|Hd]; [rewrite !Zmod_0_r; lia|].
  rewrite <- (Z.mod_add t (q * k) d Hd). f_equal. lia.
Qed.

Lemma day_shift t k : day_of (t + 604800 * k) = day_of t + 7 * k.
Proof. unfold day_of. rewrite <- Z.div_add by discriminate. f_equal. lia. Qed.

Lemma week_shift t k : week_of (t + 604800 * k) = week_of t + k.
Proof.
  change (week_of (t + 604800 * k)) with ((day_of (t + 604800 * k) + 3) / 7). rewrite day_shift.
  unfold week_of. rewrite <- Z.div_add by discriminate. f_equal. unfold day_of. lia.
Qed.

(* whole-week shifts of the interval start leave the index function unchanged (C14) *)
Lemma idx_shift_weeks start g p i k : p = 86400 \/ p = 604800 ->
  Limit_idx_to_sb_idx (start + 604800 * k) g p i = Limit_idx_to_sb_idx start g p i.
Proof.
  intros Hp. assert (E : start + 604800 * k + i * g = start + i * g + 604800 * k) by lia.
  destruct Hp as [-> | ->]; [rewrite !daily_idx, E, !day_shift|rewrite !weekly_idx, E, !week_shift]; lia.
Qed.

Lemma weekday_shift t k : dt_weekday (t + 604800 * k) = dt_weekday t.
Proof.
  change (dt_weekday (t + 604800 * k)) with ((day_of (t + 604800 * k) + 3) mod 7). rewrite day_shift.
  rewrite Z.add_shuffle0, Z.mul_comm. apply Z.mod_add. discriminate.
Qed.
Lemma hour_shift t k : dt_hour (t + 604800 * k) = dt_hour t.
Proof. unfold dt_hour. rewrite week_mod; [reflexivity|now exists 7]. Qed.
Lemma minute_shift t k : dt_minute (t + 604800 * k) = dt_minute t.
Proof. unfold dt_minute. rewrite week_mod; [reflexivity|now exists 168]. Qed.
Lemma weekday_range t : 0 <= dt_weekday t <= 6.
Proof. unfold dt_weekday. pose proof (Z.mod_pos_bound (t / 86400 + 3) 7). lia. Qed.
