(* Teams at second granularity (Model/SubSlotTeam.v): twf, the well-formed projects; maxima of lists of rationals; the
   common seconds of a team and its gate (gate_common); one slot of the walk as a function (tslot, twalk_S).  The walk
   performs writes of SubSlotProofs.v and scheduling one task is a task_step, so the run is reachable: C01 and, for every
   project, C02, C05, C11.  Then tschedule_placed (Generic.run_by_placed for this model) and its first use, the dates
   (team_good: C04, C06, C11 for starts). *)
From Coq Require Import QArith Qround Qminmax List Lia Lqa.
Require Import SP.Model.Ledger SP.Proofs.LedgerProofs SP.Model.SubSlot SP.Model.SubSlotTeam SP.Proofs.Generic SP.Proofs.GenericInst
  SP.Proofs.SubSlotProofs.
Import ListNotations.

Record twf (p : tproject) : Prop := {
  twf_G : (0 < tp_G p)%Z;
  twf_eff : forall r, 0 < sr_eff (tres_of p r);
  twf_work : forall t, tt_mile (ttask_of p t) = false -> 0 < tt_effort (ttask_of p t)
}.

Lemma fold_qmax_ge : forall l acc x, (acc <= fold_left Qmax l acc) /\ (In x l -> x <= fold_left Qmax l acc).
Proof.
  induction l as [|y l IH]; intros acc x; cbn [fold_left]; [split; [lra|intros []]|].
  destruct (IH (Qmax acc y) x) as [A B]. split.
  - pose proof (Q.le_max_l acc y). lra.
  - intros [<-|Hin]; [|now apply B]. pose proof (Q.le_max_r acc y). lra.
Qed.

Lemma qmax_list_in (l : list Q) x : In x l -> x <= qmax_list l.
Proof. exact (proj2 (fold_qmax_ge l 0 x)). Qed.
Lemma qmax_list_nonneg (l : list Q) : 0 <= qmax_list l.
Proof. exact (proj1 (fold_qmax_ge l 0 0)). Qed.

Lemma fold_qmax_ext : forall l l' a a', Forall2 Qeq l l' -> a == a' -> fold_left Qmax l a == fold_left Qmax l' a'.
Proof.
  induction l as [|x l IH]; intros l' a a' H Ha; inversion H; subst; cbn [fold_left]; [exact Ha|].
  apply IH; [assumption|]. now rewrite Ha, H2.
Qed.

Lemma fold_qmax_scale m : 0 <= m -> forall l a, fold_left Qmax (map (fun x => m * x) l) (m * a) == m * fold_left Qmax l a.
Proof.
  intros Hm. induction l as [|x l IH]; intros a; cbn [fold_left map]; [reflexivity|].
  rewrite <- IH. apply fold_qmax_ext; [clear; induction (map (fun x0 => m * x0) l); constructor; [reflexivity|assumption]|].
  destruct (Q.max_spec a x) as [[L E]|[L E]]; rewrite E.
  - apply Q.max_r. rewrite !(Qmult_comm m). apply Qmult_le_compat_r; lra.
  - apply Q.max_l. rewrite !(Qmult_comm m). apply Qmult_le_compat_r; lra.
Qed.

Section Team.
  Variable p : tproject.
  Local Notation G := (inject_Z (tp_G p)).
  Local Notation U := (tp_upper p).

  Definition ttables : tables :=
    {| res_limits := fun r => sr_limits (tres_of p r); task_limits := fun t => tt_limits (ttask_of p t); limit_tab := tlim_of p;
       works := fun r s => sr_work (tres_of p r) s; last_slot := tp_upper p |}.

  Definition tok : cell -> Prop := cell_ok G (twf p).
  Local Notation twrites := (writes ttables tok).

  Definition tG_pos (Hwf : twf p) : 0 < G := inject_Z_pos _ (twf_G p Hwf).

  Definition free (o : Q) (c : cell) : Q := Qmax 0 (G - Qmax (used c) o).

  Lemma common_le {o st slot team m} r :
    common_secs G o st slot team = Some m -> In r team -> m <= free o (cells st r slot).
  Proof.
    revert m r. induction team as [|r0 tl IH]; intros m r H Hin; [destruct Hin|]. cbn [common_secs] in H. fold (free o (cells st r0 slot)) in H.
    destruct (common_secs G o st slot tl) as [m'|] eqn:E; injection H as <-.
    - destruct Hin as [<-|Hin]; [apply Q.le_min_l|].
      eapply Qle_trans; [apply Q.le_min_r|]. now apply IH.
    - destruct Hin as [<-|Hin]; [lra|]. destruct tl as [|a tl']; [destruct Hin|].
      cbn [common_secs] in E. destruct (common_secs G o st slot tl'); discriminate.
  Qed.

  Lemma common_lb o st slot x : forall team m,
    (forall r, In r team -> x < free o (cells st r slot)) -> common_secs G o st slot team = Some m -> x < m.
  Proof.
    induction team as [|r0 tl IH]; intros m Hf H; cbn [common_secs] in H; [discriminate|]. fold (free o (cells st r0 slot)) in H.
    destruct (common_secs G o st slot tl) as [m'|] eqn:E; injection H as <-.
    - apply Q.min_glb_lt; [apply Hf; now left|]. apply IH; [intros r Hr; apply Hf; now right|reflexivity].
    - apply Hf. now left.
  Qed.

  Lemma free_le o c : twf p -> 0 <= used c -> free o c <= G.
  Proof.
    intros Hwf U1. unfold free. pose proof (Q.le_max_l (used c) o). apply Q.max_lub; [apply Qlt_le_weak, (tG_pos Hwf)|lra].
  Qed.

  (* the offset that counts in this slot: that of the bound in the task's first slot, none later *)
  Lemma o_bounds (first : bool) off : 0 <= off -> tol_avail < G - off -> tol_avail < G - (if first then off else 0).
  Proof. intros H1 H2. destruct first; [exact H2|]. unfold tol_avail in *. lra. Qed.

  Lemma gate_spec {st t slot team ev} : team_gate p st t slot ev team = true ->
    forall r, In r team -> sr_work (tres_of p r) slot = true /\ tol_avail < G - used (cells st r slot).
  Proof.
    revert ev. induction team as [|r0 tl IH]; intros ev H r Hr; [destruct Hr|]. cbn [team_gate] in H.
    apply andb_true_iff in H as [H Htl]. apply andb_true_iff in H as [H _].
    destruct Hr as [<-|Hr]; [|eapply IH; eassumption].
    unfold member_available in H. cbn zeta in H.
    apply andb_true_iff in H as [H _]. apply andb_true_iff in H as [H1 H2].
    split; [exact H1|]. apply negb_true_iff in H2. exact (Qle_bool_false _ _ H2).
  Qed.

  (* the common seconds of a team whose gate is open are more than the tolerance: every member has more than that free *)
  Lemma gate_common st t slot team (first : bool) off m : 0 <= off -> tol_avail < G - off ->
    team_gate p st t slot (sbooked st) team = true -> common_secs G (if first then off else 0) st slot team = Some m -> tol_avail < m.
  Proof.
    intros Ho1 Ho2 Hg Hm. pose proof (o_bounds first off Ho1 Ho2) as Ho. eapply common_lb; [|exact Hm].
    intros r Hr. destruct (gate_spec Hg r Hr) as [_ A]. unfold free.
    destruct (Q.max_spec (used (cells st r slot)) (if first then off else 0)) as [[_ M]|[_ M]]; rewrite M;
      (rewrite Q.max_r; [assumption|unfold tol_avail in *; lra]).
  Qed.

  Local Opaque step.
  Lemma book_members_writes t off first cap slot st0 : (slot <= U)%nat -> (twf p -> 0 <= off /\ off <= G) ->
    (twf p -> forall m, cap = Some m -> 0 < m) ->
    forall team st st' l, twrites t st0 st -> book_members p t off first cap slot team st = (st', l) -> twrites t st0 st'.
  Proof.
    intros Hs Ho Hcap.
    induction team as [|r tl IH]; intros st st' l Hw H; cbn [book_members] in H.
    - now injection H as <- _.
    - destruct (sr_work (tres_of p r) slot) eqn:Ew; [|eapply IH; eassumption]. fold (offset_if G first off (cells st r slot)) in H.
      destruct (_ || _ || negb (tlimits_ok p (sbooked st) t r slot)) eqn:Eb.
      + eapply IH; [|exact H]. eapply writes_more; [exact Hw|].
        apply (write_keep ttables); [exact Hs|now rewrite offset_if_entries|intros; apply tent_offset_if|now apply cell_ok_offset].
      + apply orb_false_iff in Eb as [_ El]. apply negb_false_iff in El.
        destruct (book_members p t off first cap slot tl _) as [st2 l2] eqn:E2. injection H as <- _.
        eapply IH; [|exact E2]. eapply writes_more; [exact Hw|]. apply (write_book ttables); [exact Hs| | |exact Ew|exact El].
        * intros u Hu. now rewrite tent_book_other, tent_offset_if.
        * intros Hc. apply cell_ok_book; [exact Hcap|now apply cell_ok_offset].
  Qed.

  Lemma release_members_writes t needed slot st0 : (slot <= U)%nat -> (twf p -> 0 < needed) ->
    forall (l : list (nat * Q * Q)) st, twrites t st0 st -> twrites t st0 (release_members G t needed slot l st).
  Proof.
    intros Hs Hn. unfold release_members. induction l as [|x l IH]; intros st Hw; cbn [fold_left]; [exact Hw|].
    apply IH. eapply writes_more; [exact Hw|]. apply (write_keep ttables); [exact Hs|apply finish_owners| |now apply cell_ok_finish].
    intros u Hu. now apply tent_finish_other.
  Qed.

  (* snd x: what was used before the booking; in the first slot it includes the offset, which keeps the end of a task
     that finishes there from lying before its start *)
  Lemma book_members_first {t off cap slot team st st' l} :
    book_members p t off true cap slot team st = (st', l) -> forall x, In x l -> off <= snd x.
  Proof.
    revert st st' l. induction team as [|r tl IH]; intros st st' l H x Hx; cbn [book_members] in H.
    - injection H as _ <-. destruct Hx.
    - destruct (sr_work (tres_of p r) slot); [|eapply IH; eassumption].
      destruct (_ || _ || negb _); [eapply IH; eassumption|].
      destruct (book_members p t off true cap slot tl _) as [st2 l2] eqn:E2. injection H as _ <-.
      destruct Hx as [<-|Hx]; [|eapply IH; eassumption]. now apply (offset_if_used_ge G true).
  Qed.
  Local Transparent step.

  (* The body of twalk for one slot (twalk_S): the gate of a team of two or more (multi), then the members in turn. *)
  Local Notation multi team := (match team with _ :: _ :: _ => true | _ => false end).
  Definition tslot (t : nat) (team : list nat) (off : Q) (first : bool) (slot : nat) (st : sstate) : sstate * list (nat * Q * Q) :=
    if multi team && negb (team_gate p st t slot (sbooked st) team) then (st, [])
    else book_members p t off first (if multi team then common_secs G (if first then off else 0) st slot team else None) slot team st.

  Lemma twalk_S t team e need off fuel slot done start st :
    twalk p t team e need off (S fuel) slot done start st =
    let '(st1, booked) := tslot t team off (Qeq_bool done 0) slot st in
    match booked with
    | [] => twalk p t team e need off fuel (S slot) done start st1
    | _ => let start' := start_at (tp_G p) off start slot in
           let done' := done + qmax_list (map (fun x => snd (fst x) * sr_eff (tres_of p (fst (fst x)))) booked) in
           if Qle_bool (need - tol_done) done'
           then (release_members G t (Qmin ((need - done) / e) G) slot booked st1,
                 Some (start', (Z.of_nat slot * tp_G p + round_half_even (qmax_list (map snd booked) + Qmin ((need - done) / e) G))%Z))
           else twalk p t team e need off fuel (S slot) done' (Some start') st1
    end.
  Proof. cbn [twalk]. unfold tslot. destruct (_ && negb _); reflexivity. Qed.

  Lemma tslot_first {t team off slot st st1 l} : tslot t team off true slot st = (st1, l) -> forall x, In x l -> off <= snd x.
  Proof. unfold tslot. destruct (_ && negb _); [intros [= _ <-] x []|]. apply book_members_first. Qed.

  (* In a well-formed project a team of two or more books only after its gate, so the cap is positive. *)
  Lemma tslot_writes t team off first slot st0 st st1 booked : (slot <= U)%nat -> (twf p -> 0 <= off /\ tol_avail < G - off) ->
    twrites t st0 st -> tslot t team off first slot st = (st1, booked) -> twrites t st0 st1.
  Proof.
    intros Hs Ho Hw H. unfold tslot in H. set (mt := multi team) in *. destruct (mt && negb _) eqn:Eg; [now injection H as <- _|].
    eapply book_members_writes; [exact Hs| | |exact Hw|exact H]; intros Hwf; destruct (Ho Hwf) as [Ho1 Ho2].
    - unfold tol_avail in Ho2. split; lra.
    - intros m Hm. destruct mt; [|discriminate]. apply negb_false_iff in Eg.
      pose proof (gate_common st t slot team first off m Ho1 Ho2 Eg Hm). pose proof tol_avail_pos. lra.
  Qed.

  Local Opaque release_members.
  (* as swalk_writes (SubSlotProofs.v) *)
  Lemma twalk_writes t team e need off st0 : (twf p -> 0 < e /\ 0 <= off /\ tol_avail < G - off) ->
    forall fuel slot done start st st' d, (slot + fuel <= S U)%nat -> (twf p -> done < need) ->
      twrites t st0 st -> twalk p t team e need off fuel slot done start st = (st', d) -> twrites t st0 st'.
  Proof.
    intros Hnum. induction fuel as [|fuel IH]; intros slot done start st st' d Hf Hd Hw H; [cbn [twalk] in H; now injection H as <- _|].
    assert (Hs : (slot <= U)%nat) by lia. assert (Hn : (S slot + fuel <= S U)%nat) by lia. rewrite twalk_S in H.
    destruct (tslot t team off (Qeq_bool done 0) slot st) as [st1 booked] eqn:Es.
    assert (Hw1 : twrites t st0 st1) by (eapply tslot_writes; [exact Hs|intros Hwf; apply (Hnum Hwf)|exact Hw|exact Es]).
    destruct booked as [|x0 bk]; [eapply (IH (S slot)); eassumption|]. cbn zeta in H.
    destruct (Qle_bool (need - tol_done) _) eqn:Ef.
    - injection H as <- _. apply release_members_writes; [exact Hs| |exact Hw1].
      intros Hwf. exact (needed_pos _ _ _ _ (proj1 (Hnum Hwf)) (Hd Hwf) (tG_pos Hwf)).
    - eapply (IH (S slot)); [exact Hn| |exact Hw1|exact H].
      intros _. pose proof (Qle_bool_false _ _ Ef). pose proof tol_done_pos. lra.
  Qed.
  Local Transparent release_members.

  Lemma team_eff_pos team : twf p -> team <> [] -> 0 < team_eff p team.
  Proof.
    intros Hwf Hne. destruct team as [|r tl]; [contradiction|].
    pose proof (qmax_list_in (map (fun r0 => sr_eff (tres_of p r0)) (r :: tl)) _ (or_introl eq_refl)).
    pose proof (twf_eff p Hwf r). unfold team_eff. lra.
  Qed.

  Inductive task_cases (st : sstate) (t : nat) : sstate -> Prop :=
  | tc_skip : task_cases st t st
  | tc_mile
      (Em : tt_mile (ttask_of p t) = true) (Hb : (0 <= tbound p st t)%Z) (Hu : (tbound p st t / tp_G p <= Z.of_nat U)%Z) :
      task_cases st t (splace st t (tbound p st t, tbound p st t))
  | tc_walk st' d
      (Em : tt_mile (ttask_of p t) = false) (Hb : (0 <= tbound p st t)%Z) (Hu : (tbound p st t / tp_G p <= Z.of_nat U)%Z)
      (Hne : tt_team (ttask_of p t) <> [])
      (Ew : twalk p t (tt_team (ttask_of p t)) (team_eff p (tt_team (ttask_of p t))) (tt_effort (ttask_of p t))
                  (inject_Z (tbound p st t mod tp_G p)) (S U - Z.to_nat (tbound p st t / tp_G p))
                  (Z.to_nat (tbound p st t / tp_G p)) 0 None st = (st', d))
      (W : twrites t st st') :
      task_cases st t (match d with Some d => splace st' t d | None => st' end).

  Lemma tschedule_task_cases st t : task_cases st t (tschedule_task p st t).
  Proof.
    unfold tschedule_task. cbn zeta.
    destruct (Z.ltb_spec (tbound p st t) 0) as [|Hb]; cbn [orb]; [constructor|].
    destruct (Z.ltb_spec (Z.of_nat U) (tbound p st t / tp_G p)) as [|Hu]; [constructor|].
    destruct (tt_mile (ttask_of p t)) eqn:Em; [now constructor|].
    destruct (tt_team (ttask_of p t)) as [|r0 tl] eqn:Et; [constructor|]. rewrite <- Et.
    assert (Hne : tt_team (ttask_of p t) <> []) by (rewrite Et; discriminate).
    destruct (twalk p t (tt_team (ttask_of p t)) _ _ _ _ _ 0 None st) as [st' d] eqn:Ew.
    apply tc_walk; try assumption.
    eapply twalk_writes; [| | |constructor|exact Ew].
    - intros Hwf. split; [now apply team_eff_pos|]. destruct (off_bounds (tp_G p) (tbound p st t) (twf_G p Hwf)) as (A & _ & B). now split.
    - lia.
    - intros Hwf. apply (twf_work p Hwf t Em).
  Qed.

  Lemma tschedule_task_step st t : task_step ttables tok t st (tschedule_task p st t).
  Proof.
    destruct (tschedule_task_cases st t) as [| |st' d].
    - exists st. split; [constructor|now left].
    - exists st. split; [constructor|right; eauto].
    - exists st'. split; [exact W|]. destruct d; [right; eauto|now left].
  Qed.

  Lemma tprepass_reachable : reachable ttables tok (tprepass p).
  Proof. rewrite tprepass_eq. apply prepass_by_inv; [intros; now constructor|constructor]. Qed.

  Theorem tschedule_reachable : reachable ttables tok (tschedule p).
  Proof. unfold tschedule. rewrite tloop_eq. apply loop_by_inv0; [|exact tprepass_reachable].
    intros st t. exact (task_step_reachable (tschedule_task_step st t)). Qed.

  Theorem tschedule_inv : twf p -> forall r s, Inv G (cells (tschedule p) r s).
  Proof. intros Hwf r s. apply (reachable_cells tG_pos Hwf tschedule_reachable). Qed.

  Theorem tschedule_working r s : entries (cells (tschedule p) r s) <> [] -> sr_work (tres_of p r) s = true.
  Proof. exact (sound_working (reachable_sound tschedule_reachable) r s). Qed.

  Theorem team_limits l k : (tusage p (sbooked (tschedule p)) l k <= sl_value (tlim_of p l))%nat.
  Proof. exact (sound_limits (reachable_sound tschedule_reachable) l k). Qed.

  Theorem team_ecov : ECov (tschedule p).
  Proof. exact (sound_ecov (reachable_sound tschedule_reachable)). Qed.

  Theorem team_in_horizon : InHorizon U (tschedule p).
  Proof. exact (sound_horizon (reachable_sound tschedule_reachable)). Qed.

  Corollary team_entries_in_horizon t r s : tent t (cells (tschedule p) r s) <> [] -> (s <= U)%nat.
  Proof.
    intros H. destruct (le_gt_dec s U) as [Hl|Hg]; [exact Hl|].
    exfalso. apply H. rewrite (ih_cells _ _ team_in_horizon r s Hg). reflexivity.
  Qed.

  (* Generic.run_by_placed for this model: a task is fresh while it has no ledger entry *)
  Section Placed.
    Variable Phi : sstate -> nat -> Z * Z -> Prop.
    Hypothesis Phi_pre : forall st t s, tt_mile (ttask_of p t) = true -> tt_pin (ttask_of p t) = Some s ->
      (0 <= s)%Z -> (s / tp_G p <= Z.of_nat U)%Z -> Phi st t (s, s).
    Hypothesis Phi_new : forall st t d, reachable ttables tok st -> tready p st t = true -> sleaf_dates st t = None ->
      (forall r s, tent t (cells st r s) = []) -> sleaf_dates (tschedule_task p st t) t = Some d -> Phi (tschedule_task p st t) t d.
    Hypothesis Phi_stable : forall st t u d, reachable ttables tok st -> sleaf_dates st t = None -> u <> t ->
      Phi st u d -> Phi (tschedule_task p st t) u d.

    Theorem tschedule_placed t d : sleaf_dates (tschedule p) t = Some d -> Phi (tschedule p) t d.
    Proof.
      rewrite tschedule_eq.
      apply (run_by_placed (fun st t => forall r s, tent t (cells st r s) = []) (reachable ttables tok) Phi); try reflexivity; auto.
      (* left are I_pre, I_step, step_frame and Phi_pre of run_by_placed *)
      - rewrite <- tprepass_eq. exact tprepass_reachable.
      - intros st u. exact (task_step_reachable (tschedule_task_step st u)).
      - intros st u v Hne. exact (task_step_fresh v (tschedule_task_step st u) Hne).
      - intros st u d' E. apply zpin_some in E as (s & -> & Hpin & _ & Hm & H0 & H1). now apply Phi_pre.
    Qed.
  End Placed.
  Section Dates.
  Hypothesis Hwf : twf p.

  Local Opaque release_members book_members.
  (* By induction on twalk itself and not read off Walk_dates: twalk_Walk (SubSlotTeamIdle.v) asks for a team without a
     repeated member, and the dates (team_good) hold of every team. *)
  Lemma twalk_dates t team e need off : 0 < e -> off < G ->
    forall fuel slot done start st st' f e',
      done < need ->
      (start = None -> done == 0) ->
      (forall s0, start = Some s0 -> (s0 <= Z.of_nat slot * tp_G p)%Z) ->
      twalk p t team e need off fuel slot done start st = (st', Some (f, e')) ->
      (f <= e')%Z /\ exists s1, (slot <= s1 < slot + fuel)%nat /\ f = start_at (tp_G p) off start s1.
  Proof.
    intros He Ho. pose proof (twf_G p Hwf) as HG.
    assert (Hoffb : (Qfloor off < tp_G p)%Z) by (pose proof (Qfloor_le off); rewrite Zlt_Qlt; lra).
    induction fuel as [|fuel IH]; intros slot done start st st' f e' Hd2 Hs0 Hs1 H; [discriminate|]. rewrite twalk_S in H.
    destruct (tslot t team off (Qeq_bool done 0) slot st) as [st1 booked] eqn:Es.
    destruct booked as [|x0 bk]; cbn zeta in H.
    { destruct (IH (S slot) done start st1 st' f e' Hd2 Hs0) as (A & s1 & L & E); [intros s0 E0; specialize (Hs1 s0 E0); nia|exact H|].
      split; [exact A|]. exists s1. split; [lia|exact E]. }
    set (booked := x0 :: bk) in *.
    set (gained := qmax_list (map (fun x => snd (fst x) * sr_eff (tres_of p (fst (fst x)))) booked)) in *.
    set (start' := start_at (tp_G p) off start slot) in *.
    destruct (Qle_bool (need - tol_done) (done + gained)) eqn:Ef.
    - (* the walk ends here, at or after its start *)
      injection H as _ <- <-. split; [|exists slot; split; [lia|reflexivity]].
      set (needed := Qmin ((need - done) / e) G) in *. set (ub := qmax_list (map snd booked)) in *.
      destruct (round_end off ub needed (qmax_list_nonneg _) (Qlt_le_weak _ _ (needed_pos e need done G He Hd2 (tG_pos Hwf)))) as [Z1 Z2].
      change (qmax_list (snd x0 :: map snd bk)) with ub. unfold start', start_at. destruct start as [s0|].
      + specialize (Hs1 s0 eq_refl). lia.
      + assert (Hz : done == 0) by now apply Hs0. apply Qeq_bool_iff in Hz. rewrite Hz in Es.
        assert (Hoff : off <= ub) by (eapply Qle_trans; [exact (tslot_first Es x0 (or_introl eq_refl))|apply qmax_list_in, in_map; now left]).
        specialize (Z2 Hoff). lia.
    - (* the start is fixed here *)
      pose proof (Qle_bool_false _ _ Ef) as Hf.
      destruct (IH (S slot) (done + gained) (Some start') st1 st' f e') as (A & s1 & _ & E);
        [pose proof tol_done_pos; lra|discriminate| |exact H|].
      { intros s0 [= <-]. unfold start', start_at. destruct start as [s0|]; [specialize (Hs1 s0 eq_refl); nia|nia]. }
      split; [exact A|]. exists slot. split; [lia|exact E].
  Qed.
  Local Transparent release_members book_members.

  Lemma tdates_stable {st st' t d} : dates_kept st st' -> tdates p st t = Some d -> tdates p st' t = Some d.
  Proof. intros He. unfold tdates. destruct (tt_leaf (ttask_of p t)); [apply He|now apply sspan_stable]. Qed.

  Definition TBound (st : sstate) (t : nat) : Z -> Prop :=
    let k := ttask_of p t in Bound_by (tdates p st) (tt_deps k) (tt_lb k) (tt_pin k).

  Lemma tbound_Bound st t : tready p st t = true -> TBound st t (tbound p st t).
  Proof. exact (Bound_by_spec (tdep_time p st) (fun _ => eq_refl)). Qed.

  Lemma TBound_stable st st' t b : dates_kept st st' -> TBound st t b -> TBound st' t b.
  Proof. intros He. apply Bound_by_mono. intros u d. now apply tdates_stable. Qed.

  Record GoodT (st : sstate) (t : nat) (d : Z * Z) : Prop := {
    gt_order : (fst d <= snd d)%Z;
    gt_window : (0 <= fst d < (Z.of_nat U + 1) * tp_G p)%Z;
    gt_mile : tt_mile (ttask_of p t) = true -> fst d = snd d;
    gt_bound : exists b, TBound st t b /\ (b <= fst d)%Z /\ (tt_mile (ttask_of p t) = true -> fst d = b)
  }.

  Lemma window_bound b : (0 <= b)%Z -> (b / tp_G p <= Z.of_nat U)%Z -> (0 <= b < (Z.of_nat U + 1) * tp_G p)%Z.
  Proof.
    intros H0 H1. pose proof (twf_G p Hwf) as HG. split; [exact H0|].
    pose proof (Z.mod_pos_bound b (tp_G p) HG). pose proof (Z.div_mod b (tp_G p) ltac:(lia)). nia.
  Qed.

  (* C04, C06, C11 for starts: the fields of GoodT *)
  Theorem team_good t d : sleaf_dates (tschedule p) t = Some d -> GoodT (tschedule p) t d.
  Proof.
    apply tschedule_placed.
    - intros st u s Hm Hpin H0 H1. constructor; cbn [fst snd]; [lia|now apply window_bound|reflexivity|].
      exists s. split; [now apply Bound_by_pin|]. split; [lia|reflexivity].
    - intros st u [f e] _ Hready Hn _ H.
      pose proof (TBound_stable st _ u _ (task_step_dates_kept (tschedule_task_step st u) Hn) (tbound_Bound st u Hready)) as Hbd.
      destruct (tschedule_task_cases st u) as [| |st' d'].
      + congruence.
      + rewrite sleaf_dates_place_same in H. injection H as <- <-.
        constructor; cbn [fst snd]; [lia|now apply window_bound|reflexivity|]. exists (tbound p st u). split; [exact Hbd|]. split; [lia|reflexivity].
      + apply (writes_placed W Hn) in H as ->.
        set (b := tbound p st u) in *. destruct (off_bounds (tp_G p) b (twf_G p Hwf)) as (_ & O2 & _).
        eapply twalk_dates in Ew as (Hfe & s1 & Hs1 & Hf);
          [|apply (team_eff_pos _ Hwf Hne)|exact O2|apply (twf_work p Hwf u Em)|reflexivity|discriminate].
        pose proof (twf_G p Hwf) as HG. assert (Hbf : (b <= f)%Z) by (rewrite Hf; apply bound_le_start; [exact HG|exact Hb|lia]).
        cbn [start_at] in Hf. rewrite Qfloor_Z in Hf. pose proof (Z.mod_pos_bound b (tp_G p) HG).
        constructor; cbn [fst snd]; [exact Hfe| |congruence|].
        * split; [lia|]. assert (Z.of_nat s1 <= Z.of_nat U)%Z by lia. nia.
        * exists b. split; [exact Hbd|]. split; [exact Hbf|congruence].
    - intros st u v dv _ Hn _ [G1 G2 G3 (b & G4 & G5)]. constructor; try assumption.
      exists b. split; [|exact G5]. exact (TBound_stable st _ v b (task_step_dates_kept (tschedule_task_step _ _) Hn) G4).
  Qed.
  End Dates.
End Team.
