(* The single-resource model (Model/SubSlot.v) on well-formed projects.  One slot of the walk (swrite), swalk performs a
   Walk of SubSlotIdle.v (swalk_Walk), C01 (sschedule_inv), and sfinal_good: what C03, C04, C06, C08, C11 say of a placed
   task (SGood) holds of the task just scheduled and is stable when another one is scheduled, hence holds of every placed
   task of the final state (Generic.run_by_placed). *)
From Coq Require Import QArith Qround Qminmax List Lia Lqa.
Require Import SP.Model.Ledger SP.Proofs.LedgerProofs SP.Model.SubSlot SP.Proofs.Generic SP.Proofs.GenericInst SP.Proofs.SubSlotProofs
  SP.Proofs.SubSlotIdle.
Import ListNotations.
Set Implicit Arguments.

Section Run.
  Variable p : sproject.
  Hypothesis Hwf : wf p.
  Local Notation G := (inject_Z (sp_G p)).

  (* One slot of swalk, with what write does not record: the exact entries, used seconds that grow, the amount booked
     (None: the slot was passed). *)
  Inductive swrite (t r s : nat) (st : sstate) : option Q -> sstate -> Prop :=
  | swrite_pass c
      (Hs : (s <= sp_upper p)%nat)
      (E : entries c = entries (cells st r s)) (U : used (cells st r s) <= used c) (Hc : Inv G c) :
      swrite t r s st None (set_cell st r s c)
  | swrite_book c x
      (Hs : (s <= sp_upper p)%nat)
      (E : entries c = entries (cells st r s) ++ [(t, x)]) (U : used (cells st r s) <= used c) (Hc : Inv G c)
      (Hx : 0 < x) (Hle : x <= G) (Hwork : sr_work (sres_of p r) s = true)
      (Hlim : forallb (fun l => slimit_ok p st l s) (slimits_of p t r) = true) :
      swrite t r s st (Some x) (note_booking (set_cell st r s c) t r s).

  Lemma swrite_grows t r s st o st' : swrite t r s st o st' -> Grows st st'.
  Proof.
    intros W. split; [|destruct W; [now exists []|now exists [(t, r, s)]]].
    destruct W; exact (cells_set_all (fun r' s' c' => used (cells st r' s') <= used c') st r s c U (fun _ _ => Qle_refl _)).
  Qed.

  Lemma swrite_write t r s st o st' : swrite t r s st o st' -> write (stables p) (sok p) t st st'.
  Proof.
    intros [c Hs E U Hc|c x Hs E U Hc Hx _ Hwork Hlim].
    - apply (write_keep (stables p)); [exact Hs|now rewrite E|intros u _; unfold tent; now rewrite E|].
      intros Hk _. split; [exact Hc|]. rewrite E. now apply Hk.
    - apply (write_book (stables p)); [exact Hs| | |exact Hwork|exact Hlim].
      + intros u Hu. exact (tent_app_other t u _ c x E Hu).
      + intros Hk _. split; [exact Hc|]. rewrite E. apply Forall_app. split; [now apply Hk|]. constructor; [exact Hx|constructor].
  Qed.

  Local Notation SWalk t r e need off :=
    (Walk (sp_G p) e need off (fun st s => Reason p st t r s) (fun s x st st1 => swrite t r s st (Some x) st1)).

  Section OneWalk.
  Variables (t r : nat) (e need off : Q).

  Local Notation Walk := (SWalk t r e need off).

  (* a booked slot: the other cells (the hypothesis booked_entries of the section Walk of SubSlotIdle.v), and the cell *)
  Lemma books_entries s x st st1 : swrite t r s st (Some x) st1 ->
    forall r' s', (r' <> r \/ s' <> s) -> entries (cells st1 r' s') = entries (cells st r' s').
  Proof. inversion 1; subst. intros r' s' Hrs. now rewrite cells_note, cells_set_other. Qed.

  Lemma books_here s x st st1 : swrite t r s st (Some x) st1 -> entries (cells st1 r s) = entries (cells st r s) ++ [(t, x)].
  Proof. inversion 1; subst. now rewrite cells_note, cells_set_same. Qed.

  Local Opaque step.
  Lemma swalk_Walk : 0 < e -> 0 <= off /\ off <= G ->
    forall fuel slot done start st st' d,
      (slot + fuel <= S (sp_upper p))%nat -> done < need -> (start = None -> done == 0) -> reachable (stables p) (sok p) st ->
      swalk p t r e need off fuel slot done start st = (st', d) -> exists bs, Walk fuel slot done start st bs st' d.
  Proof.
    intros He Ho. induction fuel as [|fuel IH]; intros slot done start st st' d Hfu Hd Hs Hr H; cbn [swalk] in H.
    { injection H as <- <-. eexists. constructor. }
    assert (Hsl : (slot <= sp_upper p)%nat) by lia. assert (Hfn : (S slot + fuel <= S (sp_upper p))%nat) by lia.
    pose proof (reachable_cells (G_pos p) Hwf Hr) as Hc.
    destruct (sr_work (sres_of p r) slot) eqn:Ew.
    2:{ destruct (IH (S slot) done start st st' d Hfn Hd Hs Hr H) as [bs W]. exists bs. apply W_pass with st; [|exact W].
        constructor; [reflexivity|apply Grows_refl|now left]. }
    set (c0 := cells st r slot) in *. fold (offset_if G (Qeq_bool done 0) off c0) in H.
    set (c1 := offset_if G (Qeq_bool done 0) off c0) in *.
    pose proof (offset_if_entries G (Qeq_bool done 0) off c0) as E1. fold c1 in E1.
    destruct (offset_if_used_ge G (Qeq_bool done 0) off c0) as [U1 O1]. fold c1 in U1, O1.
    assert (I1 : Inv G c1) by (apply offset_if_inv; [exact Ho|apply Hc]).
    assert (W1 : swrite t r slot st None (set_cell st r slot c1)) by now constructor.
    destruct (Qle_bool (G - used c1) tol_avail || _ || negb _) eqn:Et.
    { (* the slot is passed: c1 is written and the walk goes on *)
      destruct (IH (S slot) done start _ st' d Hfn Hd Hs (reachable_write Hr (swrite_write W1)) H) as [bs W].
      exists bs. eapply W_pass; [|exact W]. constructor; [|exact (swrite_grows W1)|exact (cell_passed (stables p) G st t r slot _ off Hc Ho Et)].
      exact (cells_set_all (fun r' s' c' => entries c' = entries (cells st r' s')) st r slot c1 E1 (fun _ _ => eq_refl)). }
    apply orb_false_iff in Et as [Eg Elim]. apply negb_false_iff in Elim.
    (* the slot is booked *)
    destruct (cell_booked G t (Qeq_bool done 0) off c0 (proj1 (Hc r slot)) Ho Eg) as (Hpos & HaG & Hav & E2 & U2 & I2).
    fold c1 in Hpos, HaG, Hav, E2, U2, I2. set (c2 := step G c1 (Book t None)) in *.
    destruct (Qle_bool (need - tol_done) (done + (G - used c1) * e)) eqn:Ef.
    - apply Qle_bool_iff in Ef. rewrite <- Hav in Ef. injection H as <- <-.
      set (needed := Qmin ((need - done) / e) G) in *.
      destruct (kept_bounds e need done (avail G c1) G tol_done tol_done_nonneg He Hd Hpos HaG Ef) as (K1 & K2 & K3 & K4).
      fold needed in K1, K2, K3, K4.
      destruct (finish_spec G t c2 _ _ needed E2) as [E3 U3].
      pose proof (Qlt_le_weak _ _ (needed_pos e need done G He Hd (G_pos p Hwf))) as Hn0. fold needed in Hn0.
      destruct (round_end off (used c1) needed (proj1 I1) Hn0) as [Z1 Z2].
      exists [(slot, Qmin needed (avail G c1))].
      apply W_fin; [|exact K3|exact K4|exact Z1|intros Hn; apply Z2, O1, Qeq_bool_iff, Hs, Hn].
      apply swrite_book; [exact Hsl|exact E3| |apply step_inv; [exact Hn0|exact I2]|exact K1|lra|exact Ew|exact Elim].
      fold c0. rewrite U3, U2. lra.
    - pose proof (Qle_bool_false _ _ Ef) as Hf.
      assert (W2 : swrite t r slot st (Some (avail G c1)) (note_booking (set_cell st r slot c2) t r slot)).
      { constructor; try assumption. fold c0. rewrite U2. lra. }
      destruct (IH (S slot) (done + (G - used c1) * e) (Some (start_at (sp_G p) off start slot)) (note_booking (set_cell st r slot c2) t r slot) st' d)
        as [bs W]; [exact Hfn|pose proof tol_done_pos; lra|discriminate|exact (reachable_write Hr (swrite_write W2))|exact H|].
      exists ((slot, avail G c1) :: bs). eapply W_book; [exact W2| |exact W]. now rewrite Hav.
  Qed.
  Local Transparent step.

  (* for a task without entries before the walk: C03 and C11, the third and fourth clause of Booked *)
  Lemma SWalk_cells fuel slot done start st bs st' d : Walk fuel slot done start st bs st' d -> (forall r s, tent t (cells st r s) = []) ->
    (forall s x, In (s, x) bs -> (s <= sp_upper p)%nat /\ sr_work (sres_of p r) s = true /\ 0 < x /\ x <= G /\
                                 tent t (cells st' r s) = [(t, x)]) /\
    (forall r' s', (r' <> r \/ ~ In s' (map fst bs)) -> tent t (cells st' r' s') = []).
  Proof.
    intros W Hfresh. split.
    - intros s x Hin. destruct (Walk_booked (fun r' => r' = r) books_entries W s x Hin) as (sta & stb & B & E1 & E2).
      rewrite (tent_app t (cells st r s) _ x), Hfresh by now rewrite E2, <- E1, (books_here B). inversion B; subst. now repeat split.
    - intros r' s' Hrs. unfold tent. rewrite (Walk_unbooked (fun r' => r' = r) books_entries W s' Hrs). apply Hfresh.
  Qed.
  End OneWalk.

  Lemma sschedule_task_spec st t : reachable (stables p) (sok p) st ->
    let k := stask_of p t in let b := sbound p st t in let slot := Z.to_nat (b / sp_G p) in
    sschedule_task p st t = st \/
    (0 <= b)%Z /\
    (s_mile k = true /\ sschedule_task p st t = splace st t (b, b) \/
     s_mile k = false /\
     exists bs st1 d, SWalk t (s_res k) (sr_eff (sres_of p (s_res k))) (s_effort k) (inject_Z (b mod sp_G p))
                           (S (sp_upper p) - slot) slot 0 None st bs st1 d /\ writes (stables p) (sok p) t st st1 /\
                      sschedule_task p st t = match d with Some d => splace st1 t d | None => st1 end).
  Proof.
    intros Hr k b slot. unfold sschedule_task. fold k b. cbn zeta. pose proof (wf_G p Hwf) as HG.
    destruct ((b <? 0)%Z || (Z.of_nat (sp_upper p) <? b / sp_G p)%Z) eqn:Eh; [now left|right].
    apply orb_false_iff in Eh as [Eh1 Eh2]. apply Z.ltb_ge in Eh1, Eh2. split; [exact Eh1|].
    destruct (s_mile k) eqn:Em; [now left|right]. split; [reflexivity|]. fold slot.
    destruct (swalk p t _ _ _ _ _ _ 0 None st) as [st1 d] eqn:Ew.
    destruct (off_bounds (sp_G p) b HG) as (O1 & O2 & _). pose proof (conj O1 (Qlt_le_weak _ _ O2)) as Ho.
    assert (Hfu : (slot + (S (sp_upper p) - slot) <= S (sp_upper p))%nat) by (unfold slot; lia).
    destruct (swalk_Walk t (s_res k) (wf_eff p Hwf _) Ho _ _ Hfu (wf_work p Hwf t Em) (fun _ => Qeq_refl 0) Hr Ew) as [bs W].
    exists bs, st1, d. split; [exact W|]. split; [|now destruct d].
    eapply swalk_writes; [intros _; split; [apply (wf_eff p Hwf)|exact Ho]|exact Hfu|intros _; exact (wf_work p Hwf t Em)|constructor|exact Ew].
  Qed.

  Theorem sschedule_inv : SInv p (sschedule p).
  Proof. split; [intros r s; apply (reachable_cells (G_pos p) Hwf (sschedule_reachable p))|exact (sschedule_working p)]. Qed.

  Lemma sschedule_task_grows st t : reachable (stables p) (sok p) st -> Grows st (sschedule_task p st t).
  Proof.
    intros Hr. destruct (sschedule_task_spec t Hr) as [->|(_ & [[_ ->]|(_ & bs & st1 & d & W & _ & ->)])].
    - apply Grows_refl.
    - apply Grows_place.
    - pose proof (Walk_grows (fun _ _ _ _ H => swrite_grows H) W) as Hg. destruct d; [exact (Grows_trans _ _ _ Hg (Grows_place _ _ _))|exact Hg].
  Qed.

  (* Phi_new of Generic.run_by_placed: the task the loop has just scheduled *)
  Lemma placed_SGood st t f e : reachable (stables p) (sok p) st -> sready p st t = true -> sleaf_dates st t = None ->
    (forall r s, tent t (cells st r s) = []) ->
    sleaf_dates (sschedule_task p st t) t = Some (f, e) -> SGood p (sschedule_task p st t) t f e.
  Proof.
    intros Hr Hready Hunpl Hfresh. pose proof (wf_G p Hwf) as HG.
    pose proof (SBound_stable p st _ t _ (task_step_dates_kept (sschedule_task_step p st t) Hunpl) (sbound_Bound p st t Hready)) as Hb.
    destruct (sschedule_task_spec t Hr) as [->|(Hb0 & [[Em Es]|(Em & bs & st1 & d & W & Hw & Es)])]; [congruence| |]; rewrite Es in *.
    - rewrite sleaf_dates_place_same. intros [= <- <-]. constructor; [lia|reflexivity|congruence|].
      exists (sbound p st t). split; [exact Hb|]. split; [lia|]. split; [reflexivity|]. split; [exact Hb0|congruence].
    - set (b := sbound p st t) in *. set (r := s_res (stask_of p t)) in *. set (slot0 := Z.to_nat (b / sp_G p)) in *.
      intros Ed. apply (writes_placed Hw Hunpl) in Ed as ->.
      destruct (off_bounds (sp_G p) b HG) as (_ & Hoff & _).
      destruct (Walk_dates HG Hoff W eq_refl ltac:(discriminate)) as ((s1 & Hs1 & D1) & D2 & _ & D4).
      destruct (SWalk_cells W Hfresh) as [Hbk Hnt].
      constructor.
      + exact D2.
      + congruence.
      + intros _. exists bs. unfold Booked. cbn zeta. fold r. cbn [splace cells].
        split; [exact (Walk_ended W ltac:(discriminate))|]. split; [exact (Walk_nodup W)|]. split; [|split; [exact Hnt|]].
        * intros s x Hs. destruct (Hbk s x Hs) as (A0 & A1 & A2 & A3 & A4). destruct (D4 s x Hs). now repeat split.
        * destruct (Walk_sum W ltac:(discriminate)) as [S1 S2]. rewrite Qplus_0_l in S1, S2. now split.
      + exists b. split; [exact Hb|]. split; [rewrite D1; exact (bound_le_start _ b s1 HG Hb0 (Walk_later W _ Hs1))|].
        split; [congruence|]. split; [exact Hb0|]. intros _ s s2 Hs Hs2 H2 H1. fold r in H1, H2 |- *. cbn [splace cells] in *. fold slot0 in Hs.
        apply (Walk_passed (fun _ _ _ _ H => swrite_grows H) (fun st0 st2 s0 => Blocked_mono (stables p) G st0 st2 t r s0 []) W (s := s) (s2 := s2)); [lia| |].
        * destruct (in_dec Nat.eq_dec s2 (map fst bs)) as [I|I]; [exact I|]. elim H2. apply Hnt. now right.
        * intros I. apply in_map_iff in I as ([s' x] & E & Hx). cbn in E. subst s'. destruct (Hbk s x Hx) as (_ & _ & _ & _ & E).
          rewrite E in H1. discriminate.
  Qed.

  Theorem sfinal_good t f e : sleaf_dates (sschedule p) t = Some (f, e) -> SGood p (sschedule p) t f e.
  Proof.
    rewrite sschedule_eq.
    apply (run_by_placed (fun st t => forall r s, tent t (cells st r s) = []) (reachable (stables p) (sok p))
             (fun st t d => SGood p st t (fst d) (snd d))) with (d := (f, e)); try reflexivity; auto.
    (* left are I_pre, I_step, step_frame, Phi_pre, Phi_new and Phi_stable of run_by_placed *)
    - rewrite <- sprepass_eq. apply sprepass_reachable.
    - intros st u. exact (task_step_reachable (sschedule_task_step p st u)).
    - intros st u v Hne. exact (task_step_fresh v (sschedule_task_step p st u) Hne).
    - intros st u d E. apply zpin_some in E as (s & -> & Hpin & _ & Hm & H0 & _).
      constructor; cbn [fst snd]; [lia|reflexivity|congruence|].
      exists s. split; [now apply Bound_by_pin|]. split; [lia|]. split; [reflexivity|]. split; [exact H0|congruence].
    - intros st u [f' e'] Hr Hready Hn Hf. now apply placed_SGood.
    - intros st u v [f' e'] Hr Hn Hne. apply SGood_stable; [|now apply sschedule_task_grows|exact (proj2 (task_step_frame v (sschedule_task_step p st u) Hne))].
      exact (task_step_dates_kept (sschedule_task_step p st u) Hn).
  Qed.
End Run.
