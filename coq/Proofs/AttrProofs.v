(* Scheduling twice (Model/Attr.v): what a run returns does not depend on the runs before it, because the attribute
   state is reset first (without the reset it would depend on them); a second schedule() of a scheduled project changes
   nothing (C12). *)
From Coq Require Import List Arith.
Require Import SP.Model.Attr.
Import ListNotations.

Section P.
  Context {Text Proj Res : Type}.
  Variable parse : Text -> option Proj.
  Variable sched : bool -> Proj -> Res.

  Lemma run_state_independent g1 g2 t : snd (run parse sched g1 t) = snd (run parse sched g2 t).
  Proof. unfold run. destruct (parse t); reflexivity. Qed.

  Lemma noreset_refuted pr t : parse t = Some pr -> sched true pr <> sched false pr ->
    exists g1 g2, snd (run_noreset parse sched g1 t) <> snd (run_noreset parse sched g2 t).
  Proof.
    intros Hp Hd. exists {| g_mode := 0; g_left := [] |}, {| g_mode := 2; g_left := [] |}.
    unfold run_noreset. rewrite Hp. cbn. intros H. injection H as H. contradiction.
  Qed.
End P.

Lemma schedule_once_done {S} (step : nat -> S -> S) : forall l done st,
  (forall i, In i l -> In i done) ->
  fold_left (fun acc i => if existsb (Nat.eqb i) (fst acc) then acc else (i :: fst acc, step i (snd acc))) l (done, st) = (done, st).
Proof.
  induction l as [|i tl IH]; intros done st H; [reflexivity|]. cbn [fold_left fst].
  assert (E : existsb (Nat.eqb i) done = true).
  { apply existsb_exists. exists i. split; [apply H; now left|apply Nat.eqb_refl]. }
  rewrite E. apply IH. intros j Hj. apply H. now right.
Qed.

Lemma schedule_once_covers {S} (step : nat -> S -> S) : forall l done st i,
  In i l \/ In i done ->
  In i (fst (fold_left (fun acc i => if existsb (Nat.eqb i) (fst acc) then acc else (i :: fst acc, step i (snd acc))) l (done, st))).
Proof.
  induction l as [|j tl IH]; intros done st i H; cbn [fold_left fst].
  - destruct H as [[]|H]; exact H.
  - destruct (existsb (Nat.eqb j) done) eqn:E.
    + apply IH. destruct H as [[<-|H]|H]; [right|now left|now right].
      apply existsb_exists in E as (x & Hx & Hxe). apply Nat.eqb_eq in Hxe. now subst.
    + cbn [fst snd]. apply IH. destruct H as [[<-|H]|H]; [right; now left|now left|right; now right].
Qed.

Theorem reschedule_identity {S} (step : nat -> S -> S) nsc st :
  let r := schedule_once step nsc [] st in
  schedule_once step nsc (fst r) (snd r) = r.
Proof.
  cbn zeta. unfold schedule_once.
  destruct (fold_left _ (seq 0 nsc) ([], st)) as [done st'] eqn:E. cbn [fst snd].
  apply schedule_once_done. intros i Hi.
  pose proof (schedule_once_covers step (seq 0 nsc) [] st i (or_introl Hi)) as H. now rewrite E in H.
Qed.
