(* C07: the order in which the list scheduler serves tasks. *)
From Coq Require Import List ZArith Sorted.
Require Import SP.Model.Sched SP.Proofs.Generic SP.Proofs.GenericInst.

Section Order.
  Variable p : project.

  Definition before (u v : nat) : Prop :=
    (t_prio (task_of p v) < t_prio (task_of p u))%Z \/ (t_prio (task_of p u) = t_prio (task_of p v) /\ u < v).

  Theorem sorted_leaves_spec :
    StronglySorted before (sorted_leaves p) /\ NoDup (sorted_leaves p) /\
    forall t, In t (sorted_leaves p) <-> t < length (p_tasks p) /\ t_leaf (task_of p t) = true.
  Proof. rewrite sorted_leaves_eq. exact (sorted_by_spec _ _ _). Qed.

  Theorem pick_first_ready st : forall work t rest, pick p st work = Some (t, rest) ->
    exists pre post, work = pre ++ t :: post /\ rest = pre ++ post /\ ready p st t = true /\
                     forall u, In u pre -> ready p st u = false.
  Proof. intros work t rest H. rewrite pick_eq in H. now apply pick_by_some. Qed.
End Order.
