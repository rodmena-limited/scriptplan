(* The two per-slot tables of Model/Calendar.v: bookings lie inside the working table (C02), and both tables
   are unchanged when the project start and every leave / vacation / holiday move by whole weeks (C14). *)
From Coq Require Import ZArith List Bool Lia.
Require Import SP.Base.PyRt SP.Spec.Hours SP.Model.Calendar SP.Model.Sched SP.Model.SchedIO SP.Proofs.LimitsIdx SP.Proofs.SchedInv.

Lemma work_table_nth tbl off start g (upper s : nat) : (s <= upper)%nat ->
  nth s (work_table tbl off start g upper) false = working_at tbl off (slot_time start g s).
Proof.
  intros Hs. unfold work_table.
  rewrite nth_indep with (d' := working_at tbl off (slot_time start g 0)) by (rewrite map_length, seq_length; lia).
  rewrite (map_nth (fun s0 => working_at tbl off (slot_time start g s0))). rewrite seq_nth by lia. reflexivity.
Qed.

(* C02: every booking on a resource whose calendar is computed in the model lies at an instant that is inside
   its declared hours (hours_spec at the slot start, or the default calendar) and outside every leave,
   vacation and holiday interval *)
Theorem booking_in_calendar p b tbl off start g lims :
  In b (bookings (schedule p)) ->
  res_of p (b_res b) = mk_resource_cal tbl off start g (p_upper p) lims ->
  let t := slot_time start g (b_slot b) in
  existsb (in_iv t) off = false /\
  match tbl with Some tb => hours_spec tb (dt_weekday t) (minute_of_day t) | None => default_hours t end = true.
Proof.
  intros Hb Hr. pose proof (inv_work (schedule_inv p) b Hb) as Hw.
  pose proof (inv_range (schedule_inv p) b Hb) as Hrg.
  rewrite Hr in Hw. unfold mk_resource_cal, mk_resource in Hw. cbn [r_work] in Hw. rewrite work_table_nth in Hw by exact Hrg.
  unfold working_at in Hw. apply andb_true_iff in Hw as [H1 H2]. apply negb_true_iff in H1. split; assumption.
Qed.

Open Scope Z_scope.

Lemma minute_of_day_shift t k : minute_of_day (t + 604800 * k) = minute_of_day t.
Proof. unfold minute_of_day. now rewrite hour_shift, minute_shift. Qed.

Lemma in_iv_shift t d iv : in_iv (t + d) (shift_iv d iv) = in_iv t iv.
Proof. unfold in_iv, shift_iv; cbn. lia. Qed.

Lemma working_at_shift tbl off t k :
  working_at tbl (map (shift_iv (604800 * k)) off) (t + 604800 * k) = working_at tbl off t.
Proof.
  unfold working_at. f_equal.
  - f_equal. induction off as [|iv tl IH]; [reflexivity|]. cbn [map existsb]. now rewrite in_iv_shift, IH.
  - destruct tbl as [tb|].
    + now rewrite weekday_shift, minute_of_day_shift.
    + unfold default_hours. now rewrite weekday_shift, hour_shift.
Qed.

Theorem work_table_shift tbl off start g upper k :
  work_table tbl (map (shift_iv (604800 * k)) off) (start + 604800 * k) g upper = work_table tbl off start g upper.
Proof.
  unfold work_table. apply map_ext. intros s. unfold slot_time.
  replace (start + 604800 * k + Z.of_nat s * g) with (start + Z.of_nat s * g + 604800 * k) by lia.
  apply working_at_shift.
Qed.

Theorem period_table_shift start g period upper k : period = 86400 \/ period = 604800 ->
  period_table (start + 604800 * k) g period upper = period_table start g period upper.
Proof. intros Hp. unfold period_table. apply map_ext. intros s. now apply idx_shift_weeks. Qed.
