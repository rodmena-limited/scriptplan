(* The main loop: what a placed task looks like (Good) and the loop invariant J, kept by a step (step_J): every placed
   task keeps its dates, respects its dependencies and its frame, and took the earliest eligible slots
   (C04, C06, C07, C08). *)
From Coq Require Import List ZArith Lia.
Require Import SP.Model.Sched SP.Proofs.Generic SP.Proofs.GenericInst SP.Proofs.SchedInv SP.Proofs.SchedWalk.
Import ListNotations.

Section Main.
  Variable p : project.

  Definition ext (st st' : state) : Prop :=
    (exists new, bookings st' = new ++ bookings st) /\
    (forall u d, leaf_dates st u = Some d -> leaf_dates st' u = Some d).

  Lemma ext_refl st : ext st st.
  Proof. split; [exists []; reflexivity|auto]. Qed.

  Lemma ext_trans a b c : ext a b -> ext b c -> ext a c.
  Proof.
    intros [[n1 H1] G1] [[n2 H2] G2]. split; [|auto].
    exists (n2 ++ n1). rewrite H2, H1. now rewrite app_assoc.
  Qed.

  Lemma extends_ext a b : (forall u, leaf_dates a u <> None -> True) ->
    (exists new, bookings b = new ++ bookings a) -> placed b = placed a -> ext a b.
  Proof. intros _ H1 H2. split; [exact H1|]. now rewrite (leaf_dates_same_placed H2). Qed.

  Lemma leaf_dates_place_other st t u d : u <> t -> leaf_dates (place st t d) u = leaf_dates st u.
  Proof. intros Hne. unfold leaf_dates, place; cbn. destruct (Nat.eqb_spec u t); [contradiction|reflexivity]. Qed.

  Lemma leaf_dates_place st t d u d' : leaf_dates (place st t d) u = Some d' ->
    (u = t /\ d' = d) \/ (u <> t /\ leaf_dates st u = Some d').
  Proof.
    intros H. destruct (Nat.eq_dec u t) as [->|Hne].
    - unfold leaf_dates, place in H. cbn in H. rewrite Nat.eqb_refl in H. injection H as <-. now left.
    - rewrite leaf_dates_place_other in H by exact Hne. now right.
  Qed.

  Lemma place_ext st t d : leaf_dates st t = None -> ext st (place st t d).
  Proof.
    intros Hn. split; [exists []; reflexivity|]. intros u d' Hu.
    rewrite leaf_dates_place_other; [exact Hu|]. intros ->. congruence.
  Qed.

  Lemma dates_stable st st' t d : ext st st' -> dates p st t = Some d -> dates p st' t = Some d.
  Proof.
    intros [_ He]. unfold dates. destruct (t_leaf (task_of p t)); [apply He|].
    rewrite !span_eq. apply span_by_mono. intros u d' _. apply He.
  Qed.

  Lemma dep_time_stable st st' d x : ext st st' -> dep_time p st d = Some x -> dep_time p st' d = Some x.
  Proof.
    intros He. unfold dep_time. destruct (dates p st (d_task d)) as [[s e]|] eqn:E; [|discriminate].
    now rewrite (dates_stable _ _ _ _ He E).
  Qed.

  Lemma ready_spec st t : ready p st t = true ->
    forall d, In d (t_deps (task_of p t)) -> exists x, dep_time p st d = Some x.
  Proof.
    unfold ready. rewrite forallb_forall. intros H d Hd. specialize (H d Hd). unfold dep_time.
    destruct (dates p st (d_task d)) as [[s e]|]; [eauto|discriminate].
  Qed.

  (* the two clauses g_pin and g_deps of Good below *)
  Definition Bound (st : state) (t b : nat) : Prop :=
    (forall s, t_pin (task_of p t) = Some s -> b = s) /\
    (t_pin (task_of p t) = None ->
       t_lb (task_of p t) <= b /\
       forall d, In d (t_deps (task_of p t)) -> exists x, dep_time p st d = Some x /\ x <= b).

  Lemma bound_Bound st t : ready p st t = true -> Bound st t (bound p st t).
  Proof.
    intros Hr. unfold bound. split; [now intros s ->|]. intros ->.
    destruct (fold_max_nat (dep_time p st) (t_deps (task_of p t)) (t_lb (task_of p t))) as [A B]. split; [exact A|].
    intros d Hd. destruct (ready_spec _ _ Hr d Hd) as [x Hx]. exists x. split; [exact Hx|]. now apply (B d).
  Qed.

  Lemma Bound_stable st st' t b : ext st st' -> Bound st t b -> Bound st' t b.
  Proof.
    intros He [Hp Hn]. split; [exact Hp|]. intros E. destruct (Hn E) as [A B]. split; [exact A|].
    intros d Hd. destruct (B d Hd) as (x & Hx & Hle). exists x. split; [now apply (dep_time_stable st)|exact Hle].
  Qed.

  Lemma Bound_dates st t b : Bound st t b -> t_pin (task_of p t) = None ->
    t_lb (task_of p t) <= b /\
    forall d, In d (t_deps (task_of p t)) ->
      exists s' e', dates p st (d_task d) = Some (s', e') /\ (if d_onstart d then s' else e') + d_gap d <= b.
  Proof.
    intros [_ Hn] E. destruct (Hn E) as [A B]. split; [exact A|]. intros d Hd. destruct (B d Hd) as (x & Hx & Hle).
    unfold dep_time in Hx. destruct (dates p st (d_task d)) as [[s' e']|]; [|discriminate].
    exists s', e'. split; [reflexivity|]. now injection Hx as ->.
  Qed.

  (* What a placed task looks like; every clause is stable under ext.  g_ready and g_upper leave out the milestones
     with a date of their own: the pre-pass places those without looking at their predecessors. *)
  Inductive Good (st : state) (t f e : nat) : Prop :=
  | mkGood (st0 : state) (b : nat)             (* the state in which t was placed; its bound there *)
      (g_ext : ext st0 st)
      (g_fresh : forall x, In x (bookings st0) -> b_task x <> t)
      (g_bound : b <= f)
      (g_pin : forall s, t_pin (task_of p t) = Some s -> b = s)
      (g_deps : t_pin (task_of p t) = None ->
                t_lb (task_of p t) <= b /\
                forall d, In d (t_deps (task_of p t)) -> exists x, dep_time p st0 d = Some x /\ x <= b)
      (g_ready : t_pin (task_of p t) = None \/ t_need (task_of p t) <> 0 ->
                 forall d, In d (t_deps (task_of p t)) -> exists x, dep_time p st0 d = Some x)
      (g_upper : t_pin (task_of p t) = None \/ t_need (task_of p t) <> 0 -> e <= S (p_upper p) /\ b <= p_upper p)
      (g_mile : t_need (task_of p t) = 0 -> f = b /\ e = b)
      (g_frame : t_need (task_of p t) <> 0 ->
                 f < e /\ t_team (task_of p t) <> [] /\
                 (forall r, In r (t_team (task_of p t)) -> In (mk t r f) (bookings st) /\ In (mk t r (e - 1)) (bookings st)))
      (g_fit : t_need (task_of p t) <> 0 -> forall x, b <= x -> x < e ->
               (forall r, In r (t_team (task_of p t)) -> In (mk t r x) (bookings st)) \/
               (exists stx, bext st0 stx /\ bext stx st /\
                  (forall y, In y (bookings stx) -> In y (bookings st0) \/ (b_task y = t /\ b_slot y < x)) /\
                  book_team p stx t x (t_team (task_of p t)) = None)).

  Lemma Good_stable st st' t f e : ext st st' -> Good st t f e -> Good st' t f e.
  Proof.
    intros He [st0 b g_ext g_fresh g_bound g_pin g_deps g_ready g_upper g_mile g_frame g_fit].
    refine (mkGood st' t f e st0 b ?[g_ext'] g_fresh g_bound g_pin g_deps g_ready g_upper g_mile ?[g_frame'] ?[g_fit']).
    [g_ext']: { eapply ext_trans; eassumption. }
    [g_frame']: { intros Hn. destruct (g_frame Hn) as (A & B & C). split; [exact A|]. split; [exact B|].
                  intros r Hr. destruct (C r Hr). split; apply (bext_in st _ _ (proj1 He)); assumption. }
    [g_fit']: { intros Hn x Hx1 Hx2. destruct (g_fit Hn x Hx1 Hx2) as [L|L]; [left|right].
                - intros r Hr. apply (bext_in st _ _ (proj1 He)), L, Hr.
                - apply (Skipped_later p st0 st); [apply He|exact L]. }
  Qed.

  Lemma Good_bound st t f e : Good st t f e ->
    exists b st0, ext st0 st /\ (forall y, In y (bookings st0) -> b_task y <> t) /\ b <= f /\ Bound st t b /\
      (t_need (task_of p t) <> 0 -> forall x, b <= x -> x < e ->
         (forall r, In r (t_team (task_of p t)) -> In (mk t r x) (bookings st)) \/ Skipped p st0 st t x).
  Proof.
    intros [st0 b g_ext g_fresh g_bound g_pin g_deps g_ready g_upper g_mile g_frame g_fit]. exists b, st0.
    split; [exact g_ext|]. split; [exact g_fresh|]. split; [exact g_bound|]. split; [|exact g_fit].
    apply (Bound_stable st0); [exact g_ext|exact (conj g_pin g_deps)].
  Qed.

  Lemma Good_frame st t f e : Good st t f e ->
    (t_need (task_of p t) = 0 ->
       f = e /\ (forall s, t_pin (task_of p t) = Some s -> e = s) /\ (t_pin (task_of p t) = None -> e <= p_upper p)) /\
    (t_need (task_of p t) <> 0 ->
       f < e /\ e <= S (p_upper p) /\ t_team (task_of p t) <> [] /\
       forall r, In r (t_team (task_of p t)) -> In (mk t r f) (bookings st) /\ In (mk t r (e - 1)) (bookings st)).
  Proof.
    intros [st0 b g_ext g_fresh g_bound g_pin g_deps g_ready g_upper g_mile g_frame g_fit]. split.
    - intros Hn. destruct (g_mile Hn) as [-> ->]. split; [reflexivity|]. split; [exact g_pin|].
      intros Hp. apply (g_upper (or_introl Hp)).
    - intros Hn. destruct (g_frame Hn) as (A & B). split; [exact A|]. split; [apply (g_upper (or_intror Hn))|exact B].
  Qed.

  Lemma Good_horizon st t f e : Good st t f e ->
    t_pin (task_of p t) = None \/ t_need (task_of p t) <> 0 -> f <= e /\ e <= S (p_upper p).
  Proof.
    intros HG Hc. destruct (Good_frame st t f e HG) as [Hm Hw].
    destruct (Nat.eq_dec (t_need (task_of p t)) 0) as [Hn|Hn].
    - destruct (Hm Hn) as (-> & _ & Hnone). split; [apply le_n|]. destruct Hc as [Hp|Hc]; [|contradiction].
      now apply le_S, Hnone.
    - destruct (Hw Hn) as (A & B & _). split; [now apply Nat.lt_le_incl|exact B].
  Qed.

  Lemma Good_milestone st0 st t b :
    ext st0 st -> (forall x, In x (bookings st0) -> b_task x <> t) -> t_need (task_of p t) = 0 -> Bound st0 t b ->
    (t_pin (task_of p t) = None -> ready p st0 t = true /\ b <= p_upper p) -> Good st t b b.
  Proof.
    intros g_ext g_fresh Hn [g_pin g_deps] Hnone.
    refine (mkGood st t b b st0 b g_ext g_fresh (le_n b) g_pin g_deps ?[g_ready] ?[g_upper] ?[g_mile] ?[g_frame] ?[g_fit]).
    [g_ready]: { intros [Hp|Hc]; [|contradiction]. now apply ready_spec, Hnone. }
    [g_upper]: { intros [Hp|Hc]; [|contradiction]. destruct (Hnone Hp) as [_ Hb]. split; [now apply le_S|exact Hb]. }
    [g_mile]: { now split. }
    [g_frame]: { contradiction. }
    [g_fit]: { contradiction. }
  Qed.

  (* a ready task with work and a team, placed where a walk from its bound in st, with the horizon ahead, put it *)
  Lemma Good_walk st st1 t h need ss f e :
    ready p st t = true -> (forall x, In x (bookings st) -> b_task x <> t) -> leaf_dates st t = None ->
    t_need (task_of p t) <> 0 -> t_team (task_of p t) <> [] -> bound p st t <= p_upper p -> h <= S (p_upper p) ->
    Walked p t (bound p st t) h need None st st1 (Some (f, e)) ss ->
    Good (place st1 t (f, e)) t f e.
  Proof.
    intros Hready g_fresh Hunpl Hn Hteam Hb Hh W. destruct (bound_Bound st t Hready) as [g_pin g_deps].
    pose proof (w_stop W) as Hstop. cbn [stop] in Hstop.
    assert (Hin : forall x r, In x ss -> In r (t_team (task_of p t)) -> In (mk t r x) (bookings (place st1 t (f, e)))).
    { intros x r Hx Hr. cbn [place bookings]. rewrite (w_bookings W). apply in_or_app. left. apply in_blocks. now exists r, x. }
    destruct (w_first W eq_refl) as [Hf Hmin].
    refine (mkGood _ t f e st (bound p st t) ?[g_ext] g_fresh ?[g_bound] g_pin g_deps ?[g_ready] ?[g_upper] ?[g_mile]
              ?[g_frame] ?[g_fit]).
    [g_ext]: { apply (ext_trans _ st1); [apply extends_ext; [trivial|eexists; apply W|apply W]|].
               apply place_ext. now rewrite (leaf_dates_same_placed (w_placed W)). }
    [g_bound]: { now apply (w_slots W). }
    [g_ready]: { intros _. now apply ready_spec. }
    [g_upper]: { intros _. split; [lia|exact Hb]. }
    [g_mile]: { contradiction. }
    [g_frame]: { intros _. pose proof (w_last W eq_refl) as Hl. split; [|split; [exact Hteam|]].
                 - pose proof (Hmin _ Hl). apply (w_slots W) in Hl. cbn [stop] in Hl. lia.
                 - intros r Hr. split; now apply Hin. }
    [g_fit]: { intros _ x Hx1 Hx2. destruct (w_fit W (x:=x) (conj Hx1 Hx2)) as [L|L]; [left|now right].
               intros r. now apply Hin. }
  Qed.

  Set Implicit Arguments.
  Record J (st : state) (work : list nat) : Prop := {
    j_nodup : NoDup work;
    j_unplaced : forall t, In t work -> leaf_dates st t = None;
    j_nobook : forall b, In b (bookings st) -> ~ In (b_task b) work;
    j_good : forall t f e, leaf_dates st t = Some (f, e) -> Good st t f e;
    j_own : forall t f e, leaf_dates st t = Some (f, e) ->
            forall x, In x (bookings st) -> b_task x = t -> f <= b_slot x < e;
    j_blocks : forall t f e, leaf_dates st t = Some (f, e) -> t_need (task_of p t) <> 0 ->
               exists ss, length ss = t_need (task_of p t) /\
                          filter (fun x => Nat.eqb (b_task x) t) (bookings st) = concat (map (block p t) ss)
  }.
  Unset Implicit Arguments.

  Lemma J_sub st work rest : J st work -> NoDup rest -> (forall u, In u rest -> In u work) -> J st rest.
  Proof.
    intros HJ Hnd Hsub. constructor; [exact Hnd| | |apply (j_good HJ)|apply (j_own HJ)|apply (j_blocks HJ)].
    - intros t Ht. apply (j_unplaced HJ). now apply Hsub.
    - intros b Hb Hin. apply (j_nobook HJ b Hb). now apply Hsub.
  Qed.

  (* a step makes two moves, each of which keeps J: it books slots for an unplaced task outside the work list, then
     places it *)
  Lemma J_book st st1 rest t new :
    J st rest -> leaf_dates st t = None -> ~ In t rest ->
    bookings st1 = new ++ bookings st -> placed st1 = placed st -> (forall x, In x new -> b_task x = t) ->
    J st1 rest.
  Proof.
    intros HJ Hun Hnr B1 B2 Hnew.
    assert (He : ext st st1) by (apply extends_ext; [trivial|now exists new|exact B2]).
    constructor; rewrite ?(leaf_dates_same_placed B2).
    - apply (j_nodup HJ).
    - apply (j_unplaced HJ).
    - intros x Hx. rewrite B1 in Hx. apply in_app_or in Hx as [Hx|Hx]; [now rewrite (Hnew x Hx)|now apply (j_nobook HJ)].
    - intros u f e Hu. apply (Good_stable st); [exact He|now apply (j_good HJ)].
    - intros u f e Hu x Hx Hxu. rewrite B1 in Hx. apply in_app_or in Hx as [Hx|Hx]; [|now apply (j_own HJ Hu)].
      rewrite (Hnew x Hx) in Hxu. congruence.
    - intros u f e Hu Hn. rewrite B1, filter_app, filter_none; [now apply (j_blocks HJ u Hu)|].
      intros x Hx. apply Nat.eqb_neq. rewrite (Hnew x Hx). congruence.
  Qed.

  Lemma J_place st rest t f e :
    J st rest -> leaf_dates st t = None -> ~ In t rest ->
    Good (place st t (f, e)) t f e ->
    (forall x, In x (bookings st) -> b_task x = t -> f <= b_slot x < e) ->
    (t_need (task_of p t) <> 0 -> exists ss, length ss = t_need (task_of p t) /\
       filter (fun x => Nat.eqb (b_task x) t) (bookings st) = concat (map (block p t) ss)) ->
    J (place st t (f, e)) rest.
  Proof.
    intros HJ Hun Hnr HG Hown Hblk. constructor; [apply (j_nodup HJ)| |apply (j_nobook HJ)| | |].
    - intros u Hu. rewrite leaf_dates_place_other; [now apply (j_unplaced HJ)|]. intros ->. contradiction.
    - intros u f' e' Hu. apply leaf_dates_place in Hu as [[-> [= -> ->]]|[_ Hu]]; [exact HG|].
      apply (Good_stable st); [now apply place_ext|now apply (j_good HJ)].
    - intros u f' e' Hu. apply leaf_dates_place in Hu as [[-> [= -> ->]]|[_ Hu]]; [exact Hown|now apply (j_own HJ)].
    - intros u f' e' Hu. apply leaf_dates_place in Hu as [[-> [= -> ->]]|[_ Hu]]; [exact Hblk|now apply (j_blocks HJ u Hu)].
  Qed.

  Lemma schedule_task_others st t :
    bext st (schedule_task p st t) /\ forall u, u <> t -> leaf_dates (schedule_task p st t) u = leaf_dates st u.
  Proof.
    destruct (schedule_task_cases p st t) as [->|[(_ & _ & ->)|(st1 & d & _ & _ & _ & Ew & ->)]].
    - split; [apply bext_refl|reflexivity].
    - split; [now exists []|]. intros u Hu. now apply leaf_dates_place_other.
    - destruct (walk_char Ew) as [ss W]. pose proof (leaf_dates_same_placed (w_placed W)) as E1.
      destruct d as [d|]; (split; [eexists; apply W|]); intros u Hu.
      + rewrite leaf_dates_place_other by exact Hu. now rewrite E1.
      + now rewrite E1.
  Qed.

  Lemma step_J st pre t post :
    J st (pre ++ t :: post) -> ready p st t = true -> J (schedule_task p st t) (pre ++ post).
  Proof.
    intros HJ Hready. destruct (NoDup_mid _ _ _ (j_nodup HJ)) as (Nrest & Ntrest & Hsub).
    assert (Hunpl : leaf_dates st t = None) by apply (j_unplaced HJ), in_elt.
    assert (Hfresh : forall x, In x (bookings st) -> b_task x <> t).
    { intros x Hx Heq. apply (j_nobook HJ x Hx). rewrite Heq. apply in_elt. }
    apply (J_sub st _ (pre ++ post)) in HJ; [|exact Nrest|exact Hsub].
    destruct (schedule_task_cases p st t) as [->|[(En & Eb & ->)|(st1 & d & En & Et & Eb & Ew & ->)]]; [exact HJ| |].
    - (* a milestone, at its bound *)
      apply J_place; [exact HJ|exact Hunpl|exact Ntrest| | |contradiction].
      + apply (Good_milestone st); [now apply place_ext|exact Hfresh|exact En|now apply bound_Bound|now split].
      + intros x Hx Hxt. now destruct (Hfresh x Hx).
    - (* a walk from the bound: its bookings first, then, if it succeeded, the dates *)
      destruct (walk_char Ew) as [ss W].
      assert (HJ1 : J st1 (pre ++ post))
        by apply (J_book st st1 _ t _ HJ Hunpl Ntrest (w_bookings W) (w_placed W)), blocks_task.
      destruct d as [[f e]|]; [|exact HJ1].
      apply J_place; [exact HJ1|now rewrite (leaf_dates_same_placed (w_placed W))|exact Ntrest| | |].
      + refine (Good_walk st st1 t _ _ ss f e Hready Hfresh Hunpl En Et Eb _ W). lia.
      + now apply (Walked_own W).
      + intros _. exists ss. now apply (Walked_blocks W).
  Qed.

  Lemma loop_ext : forall fuel work st, J st work -> ext st (loop p fuel work st).
  Proof.
    intros fuel work st HJ. rewrite loop_eq.
    destruct (loop_by_inv _ (ready p) (schedule_task p) (fun st' w => J st' w /\ ext st st')) with fuel work st
      as (rest & _ & H); [|split; [exact HJ|apply ext_refl]|exact H].
    intros st' pre t post [HJ' He] Hr. split; [now apply step_J|]. eapply ext_trans; [exact He|].
    destruct (schedule_task_others st' t) as [Hb Hd]. split; [exact Hb|]. intros u d Hu. rewrite Hd; [exact Hu|].
    intros ->. rewrite (j_unplaced HJ' t (in_elt _ _ _)) in Hu. discriminate.
  Qed.

End Main.
Arguments Build_J : clear implicits.
Arguments Bound_dates {p st t b}.
Arguments Good_bound {p st t f e}.
Arguments Good_frame {p st t f e}.
Arguments Good_horizon {p st t f e}.
