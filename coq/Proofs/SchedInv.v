(* What every state of the scheduler model keeps, for every project and whatever the order in which tasks are served:
   no double booking (C01), booked => working (C02), limits (C05), horizon (C11).  Also the case analysis of
   schedule_task from which the later files start (schedule_task_cases). *)
From Coq Require Import List Bool ZArith Lia.
Require Import SP.Model.Sched SP.Proofs.Generic SP.Proofs.GenericInst.
Import ListNotations.

Section Inv.
  Variable p : project.

  Definition key (b : booking) : nat * nat := (b_res b, b_slot b).

  Set Implicit Arguments.
  Record Inv (st : state) : Prop := {
    inv_nodup : NoDup (map key (bookings st));
    inv_work : forall b, In b (bookings st) -> r_work (res_of p (b_res b)) (b_slot b) = true;
    inv_limit : forall l k, usage p st l k <= l_value (lim_of p l);
    inv_range : forall b, In b (bookings st) -> b_slot b <= p_upper p
  }.
  Unset Implicit Arguments.

  Lemma init_inv : Inv init.
  Proof. constructor; cbn; try constructor; try tauto. intros; unfold usage; cbn; lia. Qed.

  Lemma booked_iff st r s : booked st r s = true <-> exists y, In y (bookings st) /\ b_res y = r /\ b_slot y = s.
  Proof.
    unfold booked. split; intros H.
    - apply existsb_exists in H as (y & Hy & H). exists y. split; [exact Hy|].
      apply andb_true_iff in H as [H1 H2]. split; now apply Nat.eqb_eq.
    - destruct H as (y & Hy & <- & <-). apply existsb_exists. exists y. split; [exact Hy|]. now rewrite !Nat.eqb_refl.
  Qed.

  Lemma counts_iff l t r s : counts p l {| b_task := t; b_res := r; b_slot := s |} = true <-> In l (limits_of p t r).
  Proof.
    unfold counts, limits_of. cbn [b_res b_task]. split; intros H.
    - apply in_or_app. apply orb_true_iff in H as [H|H].
      + left. now apply existsb_eqb_in.
      + right. apply andb_true_iff in H as [H1 H2]. apply filter_In. split; [now apply existsb_eqb_in|exact H2].
    - apply orb_true_iff. apply in_app_or in H as [H|H]; [left|right].
      + now apply existsb_eqb_in.
      + apply filter_In in H as [H1 H2]. apply andb_true_iff. split; [now apply existsb_eqb_in|exact H2].
  Qed.

  Lemma usage_add st t r s l k :
    usage p (add st t r s) l k =
    (if counts p l {| b_task := t; b_res := r; b_slot := s |} && Z.eqb (l_period (lim_of p l) s) k then 1 else 0)
    + usage p st l k.
  Proof.
    unfold usage, add; cbn [bookings filter b_slot].
    destruct (counts p l _ && Z.eqb _ k); reflexivity.
  Qed.

  Lemma add_inv st t r s : s <= p_upper p -> Inv st -> can_book p st t r s = true -> Inv (add st t r s).
  Proof.
    intros Hs Hi Hc. unfold can_book in Hc.
    apply andb_true_iff in Hc as [Hc Hl]. apply andb_true_iff in Hc as [Hw Hb]. apply negb_true_iff in Hb.
    constructor; cbn [add bookings map].
    - constructor; [|apply Hi]. intros Hin. apply in_map_iff in Hin as (y & [= Hr Hs'] & Hy).
      rewrite (proj2 (booked_iff st r s)) in Hb by now exists y. discriminate.
    - intros b [<-|Hb']; [exact Hw|now apply (inv_work Hi)].
    - intros l k. rewrite usage_add.
      destruct (counts p l _) eqn:Ec; cbn [andb]; [|apply Hi].
      destruct (Z.eqb_spec (l_period (lim_of p l) s) k) as [<-|Hne]; [|apply Hi].
      apply counts_iff in Ec.
      rewrite forallb_forall in Hl. specialize (Hl l Ec). unfold limit_ok in Hl.
      apply Nat.ltb_lt in Hl. pose proof (inv_limit Hi l (l_period (lim_of p l) s)). lia.
    - intros b [<-|Hb']; [exact Hs|now apply (inv_range Hi)].
  Qed.

  Lemma book_team_inv t s : s <= p_upper p -> forall team st st',
    Inv st -> book_team p st t s team = Some st' -> Inv st'.
  Proof.
    intros Hs. induction team as [|r tl IH]; intros st st' Hi H; cbn in H.
    - now injection H as <-.
    - destruct (can_book p st t r s) eqn:E; [|discriminate].
      eapply IH; [|exact H]. now apply add_inv.
  Qed.

  (* one step of the walk, with the two ways of being done (need = 0, need = 1) as one; here because walk_inv is the
     first to need it *)
  Lemma walk_S t fuel s need first st :
    walk p t (S fuel) s need first st =
    match book_team p st t s (t_team (task_of p t)) with
    | Some st' => let first' := match first with Some f => f | None => s end in
                  if need <=? 1 then (st', Some (first', S s)) else walk p t fuel (S s) (pred need) (Some first') st'
    | None => walk p t fuel (S s) need first st
    end.
  Proof. destruct need as [|[|need]]; reflexivity. Qed.

  Lemma walk_inv t : forall fuel s need first st st' d,
    s + fuel <= S (p_upper p) -> Inv st -> walk p t fuel s need first st = (st', d) -> Inv st'.
  Proof.
    induction fuel as [|fuel IH]; intros s need first st st' d Hr Hi H; [now injection H as <- _|].
    rewrite walk_S in H. destruct (book_team p st t s (t_team (task_of p t))) as [st1|] eqn:E.
    - apply book_team_inv in E; [|lia|exact Hi]. destruct (need <=? 1); [now injection H as <- _|].
      eapply IH; [|exact E|exact H]. lia.
    - eapply IH; [|exact Hi|exact H]. lia.
  Qed.

  Lemma place_inv st t d : Inv st -> Inv (place st t d).
  Proof. intros Hi. constructor; apply Hi. Qed.

  Lemma schedule_task_cases st t :
    schedule_task p st t = st \/
    (t_need (task_of p t) = 0 /\ bound p st t <= p_upper p /\
     schedule_task p st t = place st t (bound p st t, bound p st t)) \/
    (exists st1 d, t_need (task_of p t) <> 0 /\ t_team (task_of p t) <> [] /\ bound p st t <= p_upper p /\
       walk p t (S (p_upper p) - bound p st t) (bound p st t) (t_need (task_of p t)) None st = (st1, d) /\
       schedule_task p st t = match d with Some d => place st1 t d | None => st1 end).
  Proof.
    unfold schedule_task. destruct (Nat.ltb_spec (p_upper p) (bound p st t)) as [_|Hb]; [now left|].
    destruct (t_need (task_of p t)) as [|n]; [right; left; repeat split; assumption|].
    destruct (t_team (task_of p t)) as [|r tm]; [now left|]. right. right.
    destruct (walk p t _ _ (S n) None st) as [st1 d]. exists st1, d.
    split; [discriminate|]. split; [discriminate|]. split; [exact Hb|]. split; [reflexivity|]. destruct d; reflexivity.
  Qed.

  Lemma schedule_task_inv st t : Inv st -> Inv (schedule_task p st t).
  Proof.
    intros Hi. destruct (schedule_task_cases st t) as [->|[(_ & _ & ->)|(st1 & d & _ & _ & Hb & Ew & ->)]];
      [exact Hi|now apply place_inv|].
    apply walk_inv in Ew; [|lia|exact Hi]. destruct d; [now apply place_inv|exact Ew].
  Qed.

  Lemma prepass_inv : Inv (prepass p).
  Proof. rewrite prepass_eq. apply prepass_by_inv; [intros st t d _; apply place_inv|apply init_inv]. Qed.

  Theorem schedule_inv : Inv (schedule p).
  Proof. unfold schedule. rewrite loop_eq. apply loop_by_inv0; [exact schedule_task_inv|apply prepass_inv]. Qed.
End Inv.
