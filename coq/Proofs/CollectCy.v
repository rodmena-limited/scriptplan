(* The loop `scan` that both transliterations of collectIntervals run (CollectPy.v uses it too, with conv and pcy), that
   it yields the specification scan_spec of Spec/Runs.v, and that the Cython scanner is this loop.  Last, what that
   specification means: the functional `runs` yields exactly the maximal runs of the predicate (runs_char, C17). *)
From Coq Require Import ZArith List Bool Lia.
Require Import SP.Base.PyRt SP.Gen.ScoreboardCy SP.Spec.Runs SP.Proofs.CythonEq.
Import ListNotations.
Open Scope Z_scope.

Definition conv (sd r : Z) (x : Z * Z) : Z * Z := (sd + fst x * r, sd + snd x * r).

Lemma conv_clip sd r sI eI s e :
  conv sd r (clip sI eI (s, e)) =
  (sd + (if s <? sI then sI else s) * r, sd + (if e >? eI then eI else e) * r).
Proof.
  unfold conv, clip; cbn [fst snd].
  destruct (s <? sI) eqn:?; destruct (e >? eI) eqn:?; f_equal; f_equal; f_equal; lia.
Qed.

(* d counts the slots of the open run, st is its first slot *)
Section Scan.
  Variables (p : Z -> bool) (b sI eI m sd r : Z).

  Fixpoint scan (fuel : nat) (idx d st : Z) (acc : list (Z * Z)) : res (list (Z * Z)) :=
    match fuel with
    | O => Raise OutOfFuel
    | S f =>
      if idx <=? b then
        if p idx && (idx <? b) then scan f (idx + 1) (d + 1) (if d =? 0 then idx else st) acc
        else if d >? 0 then
          scan f (idx + 1) 0 0 (if d >=? m then acc ++ [conv sd r (clip sI eI (st, idx))] else acc)
        else scan f (idx + 1) d st acc
      else Ok acc
    end.

  Definition cur_of (d st : Z) : option Z := if d >? 0 then Some st else None.

  Definition out (idx : Z) (cur : option Z) : list (Z * Z) :=
    map (conv sd r) (map (clip sI eI) (filter (long_enough m)
      (runs (pvals p idx (Z.to_nat (b - idx))) idx cur))).

  Lemma scan_out : forall n idx d st acc,
    n = Z.to_nat (b - idx) -> idx <= b -> 0 <= d -> (0 < d -> st = idx - d) ->
    scan (S (S n)) idx d st acc = Ok (acc ++ out idx (cur_of d st)).
  Proof.
    induction n as [|n IH]; intros idx d st acc Hn Hib Hd Hst;
      unfold out; rewrite <- Hn; cbn [pvals runs].
    - assert (idx = b) as -> by lia. cbn [scan].
      rewrite Z.leb_refl, Z.ltb_irrefl, andb_false_r. replace (b + 1 <=? b) with false by lia.
      unfold cur_of. destruct (d >? 0) eqn:Hd0; [|now rewrite app_nil_r].
      rewrite Hst by lia. cbn [filter]. unfold long_enough at 1. cbn [fst snd].
      replace (b - (b - d) >=? m) with (d >=? m) by lia.
      destruct (d >=? m); [reflexivity|now rewrite app_nil_r].
    - assert (Hn' : n = Z.to_nat (b - (idx + 1))) by lia.
      set (f := S (S n)). cbn [scan]. subst f.
      replace (idx <=? b) with true by lia. replace (idx <? b) with true by lia. rewrite andb_true_r.
      rewrite !(IH _ _ _ _ Hn') by (destruct (d =? 0) eqn:?; lia). unfold out, cur_of. rewrite <- Hn'.
      replace (d + 1 >? 0) with true by lia. replace (0 >? 0) with false by lia.
      destruct (p idx), (d >? 0) eqn:Hd0; try reflexivity.
      + (* inside a run, which goes on *) now replace (d =? 0) with false by lia.
      + (* a run starts here *) now replace (d =? 0) with true by lia.
      + (* the open run ends here, and is kept if it is long enough *)
        rewrite Hst by lia. cbn [filter]. unfold long_enough at 2. cbn [fst snd].
        replace (idx - (idx - d) >=? m) with (d >=? m) by lia.
        destruct (d >=? m); [rewrite <- app_assoc|]; reflexivity.
      + (* between runs: this call keeps d and st, so it is not among those rewritten above *)
        rewrite (IH _ _ _ _ Hn') by lia. unfold out, cur_of. now rewrite <- Hn', Hd0.
  Qed.

  Lemma scan_meets_spec a : a <= b + 1 ->
    scan (Z.to_nat (b + 2 - a)) a 0 0 [] = Ok (map (conv sd r) (scan_spec p a b sI eI m)).
  Proof.
    intros Hab. destruct (Z.leb_spec a b).
    - replace (Z.to_nat (b + 2 - a)) with (S (S (Z.to_nat (b - a)))) by lia.
      now rewrite scan_out by lia.
    - replace a with (b + 1) by lia. replace (Z.to_nat (b + 2 - (b + 1))) with 1%nat by lia.
      unfold scan_spec. replace (Z.to_nat (b - (b + 1))) with 0%nat by lia.
      cbn. now replace (b + 1 <=? b) with false by lia.
  Qed.
End Scan.

Section Cy.
  Context {V : Type}.
  Variables (sb : list V) (a b sI eI m size sd r : Z) (pred : option V -> bool).
  Hypothesis Ha : 0 <= a.
  Hypothesis Hab : a <= b + 1.
  Hypothesis Hb : b < 2147483646.
  Hypothesis Hlen : py_len sb < 2147483648.
  Hypothesis HsI : 0 <= sI < 2147483648.
  Hypothesis HeI : 0 <= eI < 2147483648.

  Definition pcy (i : Z) : bool := pred (if i <? py_len sb then py_get sb i else None).

  Lemma collect_cy_scan :
    collect_intervals_fast sb a b sI eI m size sd r pred tt
    = scan pcy b sI eI m sd r (Z.to_nat (b + 2 - a)) a 0 0 [].
  Proof.
    unfold collect_intervals_fast. cbn zeta.
    rewrite !c_int_id by (unfold in_c_int, py_len in *; lia).
    match goal with |- context [ (fix loop1 (fuel_ : nat) (idx duration start : Z) (intervals : list (Z*Z)) {struct fuel_} := _) ] =>
      set (loop := (fix loop1 (fuel_ : nat) (idx duration start : Z) (intervals : list (Z*Z)) {struct fuel_} := _)) end.
    assert (H : forall f idx d st acc, 0 <= d <= idx -> 0 <= st <= idx ->
               loop f idx d st acc = scan pcy b sI eI m sd r f idx d st acc).
    { induction f as [|f IH]; intros idx d st acc Hd Hst; [reflexivity|].
      cbn [loop scan]. fold (pcy idx). destruct (idx <=? b) eqn:Hle; [|reflexivity].
      rewrite !c_int_id by (unfold in_c_int; lia). rewrite conv_clip.
      change (if idx <? b then pcy idx else false) with ((idx <? b) && pcy idx). rewrite andb_comm.
      destruct (pcy idx && (idx <? b)); [apply IH; destruct (d =? 0); lia|].
      destruct (d >? 0); [|apply IH; lia]. destruct (d >=? m); apply IH; lia. }
    apply H; lia.
  Qed.

  Theorem collect_cy_spec :
    collect_intervals_fast sb a b sI eI m size sd r pred tt
    = Ok (map (conv sd r) (scan_spec pcy a b sI eI m)).
  Proof. rewrite collect_cy_scan. now apply scan_meets_spec. Qed.
End Cy.

Section Char.
  Variables (p : Z -> bool) (a : Z).

  (* While slot i of the window [a, b) is scanned, the runs still to come are the maximal runs of
     the window that start at or after lo: the start of the open run, or i if none is open. *)
  Definition pending (i : Z) (cur : option Z) (lo : Z) : Prop :=
    a <= lo <= i /\ (forall j, lo <= j < i -> p j = true) /\ (lo = a \/ p (lo - 1) = false) /\
    match cur with Some s0 => s0 = lo /\ lo < i | None => lo = i end.

  Lemma run_start b lo i s e : maximal_run p a b s e -> (forall j, lo <= j < i -> p j = true) ->
    a <= lo -> lo < s <= i -> False.
  Proof.
    intros (_ & _ & _ & _ & [->|Hs] & _) Ht Ha Hs'; [lia|].
    rewrite Ht in Hs by lia. discriminate.
  Qed.

  Lemma runs_pending : forall n i cur lo, pending i cur lo -> forall s e,
    In (s, e) (runs (pvals p i n) i cur) <-> maximal_run p a (i + Z.of_nat n) s e /\ lo <= s.
  Proof.
    induction n as [|n IH]; intros i cur lo (Hlo & Ht & Hl & Hc) s e; cbn [pvals runs].
    - rewrite Z.add_0_r. destruct cur as [s0|].
      + destruct Hc as [-> Hc]. cbn [In]. split.
        * intros [[= <- <-]|[]]. unfold maximal_run. repeat split; try lia; auto.
        * intros [M Hs]. left. pose proof M as (_ & Hse & Hei & Hall & _ & He).
          destruct (Z.eq_dec s lo) as [->|]; [|destruct (run_start _ _ _ _ _ M Ht); lia].
          destruct (Z.eq_dec e i) as [->|]; [reflexivity|]. destruct He as [|He]; [lia|].
          rewrite Ht in He by lia. discriminate.
      + split; [intros []|]. intros [(_ & Hse & Hei & _) Hs]. lia.
    - replace (i + Z.of_nat (S n)) with (i + 1 + Z.of_nat n) by lia.
      assert (Ht' : p i = true -> forall j, lo <= j < i + 1 -> p j = true).
      { intros Hpi j Hj. destruct (Z.eq_dec j i) as [->|]; [exact Hpi|apply Ht; lia]. }
      destruct (p i) eqn:Hpi.
      + apply IH. replace (match cur with Some s0 => s0 | None => i end) with lo by (destruct cur; lia).
        unfold pending. repeat split; auto; lia.
      + assert (Hi : forall s e, maximal_run p a (i + 1 + Z.of_nat n) s e -> s <> i).
        { intros s' e' (_ & Hse & _ & Hall & _) ->. rewrite Hall in Hpi by lia. discriminate. }
        assert (IH' : In (s, e) (runs (pvals p (i + 1) n) (i + 1) None) <->
                      maximal_run p a (i + 1 + Z.of_nat n) s e /\ i + 1 <= s).
        { apply IH. unfold pending. replace (i + 1 - 1) with i by lia. repeat split; auto; lia. }
        destruct cur as [s0|].
        * destruct Hc as [-> Hc]. cbn [In]. rewrite IH'. split.
          -- intros [[= <- <-]|[M Hs]]; [|split; [exact M|lia]].
             unfold maximal_run. repeat split; auto; lia.
          -- intros [M Hs]. destruct (Z.eq_dec s lo) as [->|].
             ++ left. f_equal. pose proof M as (_ & Hse & Heb & Hall & _ & He).
                destruct (Z.lt_trichotomy e i) as [Hlt|[->|Hgt]]; [|reflexivity|].
                ** destruct He as [|He]; [lia|]. rewrite Ht in He by lia. discriminate.
                ** rewrite Hall in Hpi by lia. discriminate.
             ++ right. split; [exact M|]. pose proof (Hi _ _ M).
                destruct (Z.le_gt_cases s i); [destruct (run_start _ _ _ _ _ M Ht); lia|lia].
        * subst lo. rewrite IH'. split; intros [M Hs]; (split; [exact M|]); [lia|]. pose proof (Hi _ _ M). lia.
  Qed.

  Theorem runs_char n s e :
    In (s, e) (runs (pvals p a n) a None) <-> maximal_run p a (a + Z.of_nat n) s e.
  Proof.
    rewrite (runs_pending n a None a).
    - split; [now intros [M _]|]. intros M. split; [exact M|apply M].
    - unfold pending. repeat split; auto; lia.
  Qed.
End Char.
