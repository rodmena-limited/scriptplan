(* The regenerated working-hours tests (Python and Cython) equal the declarative specification, and the two
   computations of the minutes of a day agree. *)
From Coq Require Import ZArith List Lia.
Require Import SP.Base.PyRt SP.Gen.WorkingHoursCy SP.Gen.WorkingHoursPy SP.Spec.Hours SP.Proofs.CythonEq SP.Proofs.LimitsIdx.
Import ListNotations.
Open Scope Z_scope.

Lemma list_truthy_existsb {A} (f : A -> bool) (l : list A) :
  (if list_truthy l then existsb f l else false) = existsb f l.
Proof. destruct l; reflexivity. Qed.

(* the two list loops of the Python method; N is what the first loop returns at the end of the list *)
Lemma py_next_loop m P :
  (fix loop2 (xsR : list interval) : bool :=
     match xsR with
     | [] => false
     | (start_h, start_m, (end_h, end_m)) :: tlR =>
         if (end_h * 60 + end_m <=? start_h * 60 + start_m) && (m <? end_h * 60 + end_m)
         then true else loop2 tlR
     end) P = existsb (next_day_hit m) P.
Proof.
  induction P as [|[[sh sm] [eh em]] tl IH]; [reflexivity|].
  cbn [existsb]. rewrite <- IH. unfold next_day_hit, iv_start, iv_end. cbn [fst snd].
  now destruct (_ && _).
Qed.

Lemma py_same_loop m (N : bool) L :
  (fix loop1 (xsR : list interval) : bool :=
     match xsR with
     | [] => N
     | (start_h, start_m, (end_h, end_m)) :: tlR =>
         if end_h * 60 + end_m <=? start_h * 60 + start_m
         then if m >=? start_h * 60 + start_m then true else loop1 tlR
         else if (start_h * 60 + start_m <=? m) && (m <? end_h * 60 + end_m) then true else loop1 tlR
     end) L = existsb (same_day_hit m) L || N.
Proof.
  induction L as [|[[sh sm] [eh em]] tl IH]; [reflexivity|].
  cbn [existsb]. rewrite IH. unfold same_day_hit at 3, iv_start, iv_end. cbn [fst snd].
  destruct (eh * 60 + em <=? sh * 60 + sm); [destruct (m >=? _)|destruct ((_ <=? m) && _)]; reflexivity.
Qed.

Theorem onShift_py_spec tbl dt :
  WorkingHours_onShift_local_py tbl dt = hours_spec tbl (dt_weekday dt) (minute_of_day dt).
Proof.
  unfold WorkingHours_onShift_local_py, hours_spec, minute_of_day, py_mod. cbn zeta.
  rewrite py_same_loop, py_next_loop. f_equal. apply list_truthy_existsb.
Qed.

(* the minutes of an (hour, minute) pair as the Cython twin computes them in C ints *)
Lemma c_minutes h mi : 0 <= h <= 1000 -> 0 <= mi <= 1000 -> c_int (c_int h * 60 + c_int mi) = h * 60 + mi.
Proof. intros Hh Hm. rewrite (c_int_id h), (c_int_id mi), c_int_id; unfold in_c_int; lia. Qed.

Lemma c_iv_start x : iv_small x -> c_int (c_int (fst (fst x)) * 60 + c_int (snd (fst x))) = iv_start x.
Proof. intros (H1 & H2 & _). now apply c_minutes. Qed.
Lemma c_iv_end x : iv_small x -> c_int (c_int (fst (snd x)) * 60 + c_int (snd (snd x))) = iv_end x.
Proof. intros (_ & _ & H3 & H4). now apply c_minutes. Qed.

(* the two list loops of the Cython twin, over any list of small intervals; N is what the first
   loop returns at the end of the list *)
Lemma cy_next_loop m P : Forall iv_small P ->
  (fix loop2 (xsR : list (Z * Z * (Z * Z))) : bool :=
     match xsR with
     | [] => false
     | intervals_item :: tlR =>
         if (c_int (c_int (fst (snd intervals_item)) * 60 + c_int (snd (snd intervals_item))) <=?
             c_int (c_int (fst (fst intervals_item)) * 60 + c_int (snd (fst intervals_item)))) &&
            (m <? c_int (c_int (fst (snd intervals_item)) * 60 + c_int (snd (snd intervals_item))))
         then true else loop2 tlR
     end) P = existsb (next_day_hit m) P.
Proof.
  induction 1 as [|x tl Hx _ IH]; [reflexivity|].
  cbn [existsb]. unfold next_day_hit at 1. rewrite IH, c_iv_start, c_iv_end by assumption.
  now destruct (_ && _).
Qed.

Lemma cy_same_loop m (N : bool) L : Forall iv_small L ->
  (fix loop1 (xsR : list (Z * Z * (Z * Z))) : bool :=
     match xsR with
     | [] => N
     | intervals_item :: tlR =>
         if c_int (c_int (fst (snd intervals_item)) * 60 + c_int (snd (snd intervals_item))) <=?
            c_int (c_int (fst (fst intervals_item)) * 60 + c_int (snd (fst intervals_item)))
         then if m >=? c_int (c_int (fst (fst intervals_item)) * 60 + c_int (snd (fst intervals_item)))
              then true else loop1 tlR
         else if (c_int (c_int (fst (fst intervals_item)) * 60 + c_int (snd (fst intervals_item))) <=? m) &&
                 (m <? c_int (c_int (fst (snd intervals_item)) * 60 + c_int (snd (snd intervals_item))))
              then true else loop1 tlR
     end) L = existsb (same_day_hit m) L || N.
Proof.
  induction 1 as [|x tl Hx _ IH]; [reflexivity|].
  cbn [existsb]. unfold same_day_hit at 1. rewrite IH, c_iv_start, c_iv_end by assumption.
  destruct (iv_end x <=? iv_start x); [destruct (m >=? iv_start x)|destruct (_ && _)]; reflexivity.
Qed.

(* the C loop of the daily minutes adds without wrapping: each interval adds at most 61000 minutes (100000 here, for a
   round figure), so a total that leaves this much room per interval stays below 2^31 *)
Lemma daily_cy_loop L : Forall iv_small L -> (forall x, In x L -> iv_end x >= iv_start x) ->
  forall acc, 0 <= acc -> acc + Z.of_nat (length L) * 100000 <= 200000000 ->
  (fix loop1 (xsR : list (Z * Z * (Z * Z))) (total_minutes : Z) {struct xsR} : Z :=
     match xsR with
     | [] => total_minutes
     | intervals_item :: tlR =>
         loop1 tlR (c_int (total_minutes +
           (c_int (c_int (fst (snd intervals_item)) * 60 + c_int (snd (snd intervals_item))) -
            c_int (c_int (fst (fst intervals_item)) * 60 + c_int (snd (fst intervals_item))))))
     end) L acc = fold_left (fun a x => a + (iv_end x - iv_start x)) L acc.
Proof.
  induction 1 as [|x tl Hx _ IH]; intros Hord acc Hacc Hbound; [reflexivity|].
  cbn [fold_left]. rewrite c_iv_start, c_iv_end by assumption. cbn [length] in Hbound.
  pose proof (Hord x (or_introl eq_refl)). destruct Hx as (H1 & H2 & H3 & H4). unfold iv_start, iv_end in *.
  rewrite c_int_id by (unfold in_c_int; lia).
  apply IH; [intros; apply Hord; now right|lia|lia].
Qed.

(* Cython's C remainder of weekday + 6 is Python's (weekday - 1) % 7 *)
Lemma prev_weekday wd : 0 <= wd <= 6 -> c_int (c_rem (wd + 6) 7) = (wd - 1) mod 7.
Proof.
  intros H. unfold c_rem. rewrite Z.rem_mod_nonneg by lia.
  replace (wd + 6) with (wd - 1 + 1 * 7) by lia. rewrite Z.mod_add by discriminate.
  apply c_int_id. pose proof (Z.mod_pos_bound (wd - 1) 7). unfold in_c_int. lia.
Qed.

Lemma daily_py_loop l acc :
  (fix loop1 (xsR : list (Z * Z * (Z * Z))) (total_minutes : Z) {struct xsR} : Z :=
     match xsR with
     | [] => total_minutes
     | (start_h, start_m, (end_h, end_m)) :: tlR =>
         loop1 tlR (total_minutes + (end_h * 60 + end_m - (start_h * 60 + start_m)))
     end) l acc = fold_left (fun a x => a + (iv_end x - iv_start x)) l acc.
Proof.
  revert acc. induction l as [|[[sh sm] [eh em]] tl IH]; intros acc; [reflexivity|].
  cbn [fold_left]. unfold iv_start at 2, iv_end at 2. cbn [fst snd]. apply IH.
Qed.

Section CyHours.
  Variable tbl : hours_table.
  Hypothesis Hsmall : table_small tbl.

  Lemma dict_get_list_small k : Forall iv_small (dict_get_list tbl k).
  Proof.
    apply Forall_forall. intros x. unfold dict_get_list. revert Hsmall. unfold table_small.
    induction tbl as [|[k' l] d IH]; cbn; [tauto|]. intros Hd. destruct (k =? k').
    - apply (Hd k' l). now left.
    - apply IH. intros k0 l0 y Hi. apply (Hd k0 l0 y). now right.
  Qed.

  Theorem check_working_hours_fast_spec m wd : 0 <= wd <= 6 ->
    check_working_hours_fast m wd tbl true = hours_spec tbl wd m.
  Proof.
    intros Hwd. unfold check_working_hours_fast, hours_spec. cbn zeta. cbn [negb].
    (* the cross-midnight block occurs three times in the generated text *)
    set (N := if dict_mem tbl (c_int (c_rem (wd + 6) 7)) then _ else false).
    assert (HN : N = existsb (next_day_hit m) (dict_get_list tbl ((wd - 1) mod 7))).
    { subst N. rewrite prev_weekday, cy_next_loop by (assumption || apply dict_get_list_small).
      unfold dict_mem, dict_get_list. now destruct (dict_get tbl _). }
    rewrite HN, cy_same_loop by apply dict_get_list_small.
    unfold dict_mem, dict_get_list. destruct (dict_get tbl wd) as [[|x l]|]; reflexivity.
  Qed.

  Theorem onShift_cy_eq_py dt :
    WorkingHours_onShift_local_cy tbl dt = WorkingHours_onShift_local_py tbl dt.
  Proof.
    rewrite onShift_py_spec. unfold WorkingHours_onShift_local_cy. cbn zeta.
    apply check_working_hours_fast_spec. apply weekday_range.
  Qed.

  (* daily minutes: both twins compute the same integral number of minutes; the value returned to
     the caller is that number / 60.0 in double precision on both sides iff the declared C return
     type is 'double' (ret_ctypes_hours below) *)
  Theorem daily_minutes_cy_eq_py wd :
    (forall x, In x (dict_get_list tbl wd) -> iv_end x >= iv_start x) ->
    py_len (dict_get_list tbl wd) <= 1000 ->
    WorkingHours_get_daily_minutes_cy tbl wd = WorkingHours_get_daily_minutes_py tbl wd.
  Proof.
    intros Hord Hlen. unfold WorkingHours_get_daily_minutes_cy, WorkingHours_get_daily_minutes_py.
    destruct (dict_mem tbl wd); cbn [negb]; [|reflexivity]. cbn zeta.
    rewrite daily_py_loop. unfold calculate_daily_minutes_cy. cbn zeta. rewrite (c_int_id 0) by (unfold in_c_int; lia).
    apply daily_cy_loop; [apply dict_get_list_small|exact Hord|lia|unfold py_len in Hlen; lia].
  Qed.
End CyHours.

Lemma ret_ctypes_hours :
  check_working_hours_fast_ret_ctype = 2%nat /\ calculate_daily_minutes_cy_ret_ctype = 3%nat.
Proof. split; reflexivity. Qed.
