(* C08 for teams and limits: why a slot between bound and end was skipped, in terms of the final schedule. *)
From Coq Require Import List Bool ZArith Lia.
Require Import SP.Model.Sched SP.Proofs.Generic SP.Proofs.SchedInv SP.Proofs.SchedWalk SP.Proofs.SchedMain SP.Proofs.SchedFinal.
Import ListNotations.

Section Team.
  Variable p : project.

  Definition team_count (l t : nat) (rs : list nat) : nat :=
    length (filter (fun r => counts p l (mk t r 0)) rs).

  (* counts does not look at the slot of a booking: any s will do *)
  Lemma team_count_cons l t a tl s :
    team_count l t (a :: tl) = (if counts p l {| b_task := t; b_res := a; b_slot := s |} then 1 else 0) + team_count l t tl.
  Proof.
    unfold team_count. cbn [filter]. change (counts p l (mk t a 0)) with (counts p l {| b_task := t; b_res := a; b_slot := s |}).
    now destruct (counts p l _).
  Qed.

  Lemma usage_mono l k a b : bext a b -> usage p a l k <= usage p b l k.
  Proof. intros [n Hn]. unfold usage. rewrite Hn, filter_app, app_length. lia. Qed.

  Lemma usage_ext_eq l k a b : bookings a = bookings b -> usage p a l k = usage p b l k.
  Proof. unfold usage. now intros ->. Qed.

  Lemma can_book_false st t r s : can_book p st t r s = false ->
    r_work (res_of p r) s = false \/
    (exists y, In y (bookings st) /\ b_res y = r /\ b_slot y = s) \/
    (exists l, In l (limits_of p t r) /\ l_value (lim_of p l) <= usage p st l (l_period (lim_of p l) s)).
  Proof.
    unfold can_book. intros H. apply andb_false_iff in H as [H|H]; [apply andb_false_iff in H as [H|H]|].
    - now left.
    - right. left. now apply negb_false_iff, booked_iff in H.
    - right. right. apply forallb_false in H as (l & Hl & Hok). exists l. split; [exact Hl|]. now apply Nat.ltb_ge in Hok.
  Qed.

  (* why a team cannot be booked: one member cannot, given the members before it (each of which a limit may count) *)
  Lemma book_team_none t s : forall team st, NoDup team -> book_team p st t s team = None ->
    exists r, In r team /\
      (r_work (res_of p r) s = false \/
       (exists y, In y (bookings st) /\ b_res y = r /\ b_slot y = s) \/
       (exists l, In l (limits_of p t r) /\
          l_value (lim_of p l) < usage p st l (l_period (lim_of p l) s) + team_count l t team)).
  Proof.
    induction team as [|a tl IH]; intros st Hnd H; cbn in H; [discriminate|].
    inversion Hnd as [|? ? Ha Htl]; subst.
    destruct (can_book p st t a s) eqn:E.
    - destruct (IH _ Htl H) as (r & Hr & Why). exists r. split; [now right|].
      destruct Why as [W|[(y & Hy & K1 & K2)|(l & Hl & Hu)]].
      + now left.
      + right. left. destruct Hy as [<-|Hy]; [|now exists y].
        (* the booking just made is for a, and a is not listed again *)
        cbn in K1. now subst r.
      + right. right. exists l. split; [exact Hl|].
        rewrite usage_add, Z.eqb_refl, andb_true_r in Hu. rewrite (team_count_cons l t a tl s). lia.
    - exists a. split; [now left|]. apply can_book_false in E as [W|[Y|(l & Hl & Hu)]].
      + now left.
      + right. now left.
      + right. right. exists l. split; [exact Hl|].
        rewrite (team_count_cons l t a tl s), (proj2 (counts_iff p l t a s) Hl). lia.
  Qed.

  Theorem no_idle_team t f e : leaf_dates (final p) t = Some (f, e) -> t_need (task_of p t) <> 0 ->
    NoDup (t_team (task_of p t)) ->
    exists b, b <= f /\ (forall s, t_pin (task_of p t) = Some s -> b = s) /\
      (t_pin (task_of p t) = None -> forall d, In d (t_deps (task_of p t)) ->
         exists s' e', dates p (final p) (d_task d) = Some (s', e') /\ (if d_onstart d then s' else e') + d_gap d <= b) /\
      forall x, b <= x -> x < e ->
        (forall r, In r (t_team (task_of p t)) -> In (mk t r x) (bookings (final p))) \/
        exists r, In r (t_team (task_of p t)) /\
          (r_work (res_of p r) x = false \/
           (exists y, In y (bookings (final p)) /\ b_res y = r /\ b_slot y = x /\ b_task y <> t) \/
           (exists l, In l (limits_of p t r) /\
              l_value (lim_of p l) < usage p (final p) l (l_period (lim_of p l) x) + team_count l t (t_team (task_of p t)))).
  Proof.
    intros Ht Hn Hnd. destruct (Good_bound (final_good p t f e Ht)) as (b & st0 & He & Hfresh & Hb & HB & Hfit).
    exists b. split; [exact Hb|]. split; [exact (proj1 HB)|]. split.
    - intros Hpin. apply (Bound_dates HB Hpin).
    - intros x Hx1 Hx2. destruct (Hfit Hn x Hx1 Hx2) as [L|(stx & X1 & X2 & X3 & X4)]; [now left|]. right.
      (* the reason holds in stx; what stx has beyond st0 are the task's own earlier slots, and the final ledger has more *)
      destruct (book_team_none _ _ _ _ Hnd X4) as (r & Hr & Why). exists r. split; [exact Hr|].
      destruct Why as [W|[(y & Hy & K1 & K2)|(l & Hl & Hu)]]; [now left|right; left|right; right].
      + destruct (X3 y Hy) as [Q|[_ Q]]; [|lia].
        exists y. split; [now apply (bext_in st0 _ _ (proj1 He))|]. split; [exact K1|]. split; [exact K2|now apply Hfresh].
      + exists l. split; [exact Hl|]. pose proof (usage_mono l (l_period (lim_of p l) x) _ _ X2). lia.
  Qed.

  (* for a team of one that no limit counts, the team statement's reasons come down to two *)
  Lemma team_of_one {booked off taken : nat -> Prop} {full : nat -> nat -> Prop} (lims : nat -> list nat) r :
    lims r = [] ->
    (forall r', In r' [r] -> booked r') \/
    (exists r', In r' [r] /\ (off r' \/ taken r' \/ exists l, In l (lims r') /\ full r' l)) ->
    booked r \/ off r \/ taken r.
  Proof.
    intros Hl [L|(r' & [<-|[]] & Why)].
    - left. apply L. now left.
    - destruct Why as [W|[Y|(l & Hl' & _)]]; [right; now left|right; now right|]. rewrite Hl in Hl'. destruct Hl'.
  Qed.

  Theorem no_idle t r f e : leaf_dates (final p) t = Some (f, e) -> t_need (task_of p t) <> 0 ->
    t_team (task_of p t) = [r] -> limits_of p t r = [] ->
    exists b, b <= f /\ (forall s, t_pin (task_of p t) = Some s -> b = s) /\
                       (t_pin (task_of p t) = None -> forall d, In d (t_deps (task_of p t)) ->
                           exists s' e', dates p (final p) (d_task d) = Some (s', e') /\
                                         (if d_onstart d then s' else e') + d_gap d <= b) /\
      forall x, b <= x -> x < e ->
        In (mk t r x) (bookings (final p)) \/ r_work (res_of p r) x = false \/
        exists y, In y (bookings (final p)) /\ b_res y = r /\ b_slot y = x /\ b_task y <> t.
  Proof.
    intros Ht Hn Hteam Hlim. destruct (no_idle_team t f e Ht Hn) as (b & A & B & C & D).
    { rewrite Hteam. constructor; [intros []|constructor]. }
    exists b. split; [exact A|]. split; [exact B|]. split; [exact C|].
    rewrite Hteam in D. intros x Hx1 Hx2. exact (team_of_one (limits_of p t) r Hlim (D x Hx1 Hx2)).
  Qed.
End Team.
